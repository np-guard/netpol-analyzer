(* The format models of Model/Format.v (the row formats and dot of `list`, the row formats of `diff`) and of
   Model/DiffDot.v (the dot of `diff`) depend on the result only as a multiset of entries (C08, for any correct sort)
   and encode every entry exactly once (C09: the rows are a permutation of the entries' rows). *)
From Coq Require Import List String Permutation Sorting.Sorted.
From NP Require Import Basics ConnSet Format DiffDot SortGeneric.
Import ListNotations.
Open Scope list_scope.

(* the sorts of Format.v are the generic insertion sort: the same fixpoints, written out there so that the
   model runs without the proofs *)
Lemma strsort_is l : strsort l = ssort l.
Proof. reflexivity. Qed.

Theorem strsort_perm_invariant l1 l2 : Permutation l1 l2 -> strsort l1 = strsort l2.
Proof. rewrite !strsort_is. apply ssort_perm_invariant. Qed.

Lemma strsort_perm l : Permutation (strsort l) l.
Proof. rewrite strsort_is. apply isort_perm. Qed.

Lemma strsort_map_perm {A} (f : A -> string) l1 l2 : Permutation l1 l2 -> strsort (map f l1) = strsort (map f l2).
Proof. intros H. apply strsort_perm_invariant, Permutation_map, H. Qed.

Lemma string_eqb_false_sym a b : String.eqb a b = false -> String.eqb b a = false.
Proof. rewrite String.eqb_sym. auto. Qed.

Lemma leb_refl s : String.leb s s = true.
Proof. destruct (String.leb_total s s) as [H|H]; exact H. Qed.

Section Lex.
  Context {A : Type} (key : A -> string) (rest : A -> A -> bool).

  Definition lex (a b : A) : bool :=
    if String.eqb (key a) (key b) then rest a b else String.leb (key a) (key b).

  Lemma lex_total :
    (forall a b, rest a b = true \/ rest b a = true) -> forall a b, lex a b = true \/ lex b a = true.
  Proof.
    intros T a b. unfold lex. rewrite (String.eqb_sym (key b)).
    destruct (String.eqb (key a) (key b)); [apply T | apply String.leb_total].
  Qed.

  Lemma lex_antisym a b :
    lex a b = true -> lex b a = true -> key a = key b /\ rest a b = true /\ rest b a = true.
  Proof.
    unfold lex. rewrite (String.eqb_sym (key b)).
    destruct (String.eqb_spec (key a) (key b)) as [E|N]; [auto|].
    intros H1 H2. destruct (N (String.leb_antisym _ _ H1 H2)).
  Qed.

  Lemma lex_trans :
    (forall a b c, rest a b = true -> rest b c = true -> rest a c = true) ->
    forall a b c, lex a b = true -> lex b c = true -> lex a c = true.
  Proof.
    intros T a b c. unfold lex.
    destruct (String.eqb (key a) (key b)) eqn:Eab, (String.eqb (key b) (key c)) eqn:Ebc.
    - apply String.eqb_eq in Eab, Ebc. rewrite Eab, Ebc, String.eqb_refl. apply T.
    - apply String.eqb_eq in Eab. rewrite Eab, Ebc. auto.
    - apply String.eqb_eq in Ebc. rewrite <- Ebc, Eab. auto.
    - intros H1 H2. destruct (String.eqb_spec (key a) (key c)) as [Eac|_].
      + (* a < b < c = a in the key *)
        rewrite <- Eac in H2. rewrite (String.leb_antisym _ _ H1 H2), String.eqb_refl in Eab. discriminate.
      + exact (string_leb_trans _ _ _ H1 H2).
  Qed.
End Lex.

Lemma row_leb_lex : row_leb = lex r_src (lex r_dst (fun a b => String.leb (r_conn a) (r_conn b))).
Proof. reflexivity. Qed.

Lemma row_leb_total a b : row_leb a b = true \/ row_leb b a = true.
Proof. rewrite row_leb_lex. apply lex_total, lex_total. intros x y. apply String.leb_total. Qed.

Lemma row_leb_antisym a b : row_leb a b = true -> row_leb b a = true -> a = b.
Proof.
  rewrite row_leb_lex. intros H1 H2.
  destruct (lex_antisym _ _ _ _ H1 H2) as (Es & H3 & H4). destruct (lex_antisym _ _ _ _ H3 H4) as (Ed & H5 & H6).
  destruct a as [s1 d1 c1], b as [s2 d2 c2]; cbn [r_src r_dst r_conn] in *. rewrite Es, Ed, (String.leb_antisym _ _ H5 H6). reflexivity.
Qed.

Lemma row_leb_trans a b c : row_leb a b = true -> row_leb b c = true -> row_leb a c = true.
Proof. rewrite row_leb_lex. apply lex_trans, lex_trans. intros x y z. apply string_leb_trans. Qed.

Lemma rowsort_is l : rowsort l = isort row row_leb l.
Proof. reflexivity. Qed.

Theorem rowsort_perm_invariant l1 l2 : Permutation l1 l2 -> rowsort l1 = rowsort l2.
Proof.
  rewrite !rowsort_is. apply isort_perm_invariant; [apply row_leb_total | apply row_leb_antisym | apply row_leb_trans].
Qed.

Theorem rowsort_perm l : Permutation (rowsort l) l.
Proof. rewrite rowsort_is. apply isort_perm. Qed.

(* The formatters' sort.Slice compares (src, dst) only: XFormatProofs.key_sort_is_rowsort reduces that case to this one
   when no two rows share both. *)
Theorem rowsort_is_the_sort (srt : list row -> list row) l :
  Permutation (srt l) l -> StronglySorted (fun a b => row_leb a b = true) (srt l) -> srt l = rowsort l.
Proof.
  rewrite rowsort_is. apply any_sort_agrees; [apply row_leb_total | apply row_leb_antisym | apply row_leb_trans].
Qed.

Lemma list_rows_perm_invariant es1 es2 : Permutation es1 es2 -> rowsort (map row_of es1) = rowsort (map row_of es2).
Proof. intros H. apply rowsort_perm_invariant, Permutation_map, H. Qed.

Theorem list_txt_perm_invariant es1 es2 : Permutation es1 es2 -> list_txt es1 = list_txt es2.
Proof. intros H. unfold list_txt. rewrite (strsort_map_perm _ _ _ H). reflexivity. Qed.

Theorem list_md_perm_invariant es1 es2 : Permutation es1 es2 -> list_md es1 = list_md es2.
Proof. intros H. unfold list_md. rewrite (list_rows_perm_invariant _ _ H). reflexivity. Qed.

Theorem list_csv_perm_invariant es1 es2 : Permutation es1 es2 -> list_csv es1 = list_csv es2.
Proof. intros H. unfold list_csv. rewrite (list_rows_perm_invariant _ _ H). reflexivity. Qed.

Theorem list_json_perm_invariant es1 es2 : Permutation es1 es2 -> list_json es1 = list_json es2.
Proof.
  intros H. unfold list_json. rewrite (list_rows_perm_invariant _ _ H).
  destruct es1, es2; try reflexivity.
  - destruct (Permutation_nil_cons H).
  - destruct (Permutation_nil_cons (Permutation_sym H)).
Qed.

Lemma diff_is_empty_perm d1 d2 : Permutation d1 d2 -> diff_is_empty d1 = diff_is_empty d2.
Proof. apply forallb_perm. Qed.

Theorem diff_lines_perm_invariant line d1 d2 : Permutation d1 d2 -> diff_lines line d1 = diff_lines line d2.
Proof.
  intros H. unfold diff_lines.
  assert (G : forall f, strsort (map (fun e => line (drow_of e)) (filter f d1)) = strsort (map (fun e => line (drow_of e)) (filter f d2)))
    by (intros f; apply strsort_map_perm, filter_perm, H).
  rewrite !G. reflexivity.
Qed.

(* [G] is the format with holes for the headers: a rewrite under the unfolded format would have Coq type the literals
   again at every step *)
Lemma diff_format_perm {A} (line : drow -> string) (G : list string -> A) (e : A) d1 d2 :
  Permutation d1 d2 ->
  (if diff_is_empty d1 then e else G (diff_lines line d1)) = (if diff_is_empty d2 then e else G (diff_lines line d2)).
Proof. intros H. rewrite (diff_is_empty_perm _ _ H), (diff_lines_perm_invariant line _ _ H). reflexivity. Qed.

Open Scope string_scope.

Lemma dot_lookup_perm ps1 ps2 s :
  Permutation ps1 ps2 -> NoDup (map dp_str ps1) -> dot_lookup ps1 s = dot_lookup ps2 s.
Proof.
  intros P. induction P as [|x l l' P IH|x y l|l l' l'' P1 IH1 P2 IH2]; intros Hn.
  - reflexivity.
  - cbn [dot_lookup]. destruct (String.eqb (dp_str x) s); [reflexivity|].
    apply IH. cbn [map] in Hn. apply NoDup_cons_iff in Hn. apply Hn.
  - cbn [dot_lookup]. destruct (String.eqb_spec (dp_str y) s) as [Ey|Ey], (String.eqb_spec (dp_str x) s) as [Ex|Ex]; try reflexivity.
    (* the first two peers have the same string *)
    cbn [map] in Hn. apply NoDup_cons_iff in Hn. destruct Hn as [Hy _]. destruct Hy. left. congruence.
  - rewrite IH1 by exact Hn. apply IH2. exact (Permutation_NoDup (Permutation_map dp_str P1) Hn).
Qed.

Lemma dot_visited_perm ps1 ps2 strs :
  Permutation ps1 ps2 -> NoDup (map dp_str ps1) -> map (dot_lookup ps1) strs = map (dot_lookup ps2) strs.
Proof. intros P Hn. apply map_ext. intros s. apply dot_lookup_perm; assumption. Qed.

Lemma dot_strs_perm es1 es2 ps1 ps2 :
  Permutation es1 es2 -> Permutation ps1 ps2 -> Permutation (dot_strs es1 ps1) (dot_strs es2 ps2).
Proof.
  intros Pe Pp. unfold dot_strs. apply Permutation_app.
  - apply Permutation_flat_map, Pe.
  - apply Permutation_map, filter_perm, Pp.
Qed.

Theorem list_dot_perm_invariant es1 es2 ps1 ps2 :
  Permutation es1 es2 -> Permutation ps1 ps2 -> NoDup (map dp_str ps1) -> list_dot es1 ps1 = list_dot es2 ps2.
Proof.
  intros Pe Pp Hn. unfold list_dot.
  rewrite (strsort_perm_invariant _ _ (dot_strs_perm _ _ _ _ Pe Pp)), (dot_visited_perm _ _ _ Pp Hn), (strsort_map_perm _ _ _ Pe).
  reflexivity.
Qed.

(* The dot output of `diff` (Model/DiffDot.v) is a function of the multiset of diff entries and of the set of peers:
   the entries reach the node lines only through the colour, an existsb over them. *)
Lemma node_color_perm d d' s : Permutation d d' -> node_color d s = node_color d' s.
Proof. intros P. unfold node_color, peer_is_new, peer_is_lost. rewrite !(existsb_perm _ _ _ P). reflexivity. Qed.

Lemma ddot_peer_line_perm d d' p : Permutation d d' -> ddot_peer_line d p = ddot_peer_line d' p.
Proof. intros P. unfold ddot_peer_line. rewrite (node_color_perm d d' _ P). reflexivity. Qed.

Lemma ddot_ns_group_perm d d' v ns : Permutation d d' -> ddot_ns_group d v ns = ddot_ns_group d' v ns.
Proof.
  intros P. unfold ddot_ns_group. rewrite (map_ext _ _ (fun p => f_equal (append tab) (ddot_peer_line_perm d d' p P))). reflexivity.
Qed.

Theorem diff_dot_perm_invariant d d' ps ps' :
  Permutation d d' -> Permutation ps ps' -> NoDup (map dp_str ps) -> diff_dot d ps = diff_dot d' ps'.
Proof.
  intros Pd Pp Hn. unfold diff_dot. rewrite (diff_is_empty_perm d d' Pd). destruct (diff_is_empty d'); [reflexivity|].
  cbn zeta.
  rewrite (strsort_perm_invariant (ddot_strs d) _ (Permutation_flat_map _ Pd)), (dot_visited_perm ps ps' _ Pp Hn).
  rewrite (flat_map_ext _ _ (fun ns => ddot_ns_group_perm d d' _ ns Pd)), (map_ext _ _ (fun p => ddot_peer_line_perm d d' p Pd)).
  rewrite (strsort_map_perm ddot_edge_line _ _ (filter_perm is_ic _ _ Pd)).
  rewrite (strsort_map_perm ddot_edge_line _ _ (filter_perm (fun e => negb (is_ic e)) _ _ Pd)). reflexivity.
Qed.

(* C09: unchanged entries included *)
Theorem diff_dot_edges_are_the_entries d :
  Permutation (strsort (map ddot_edge_line (filter (fun e => negb (is_ic e)) d)) ++ strsort (map ddot_edge_line (filter is_ic d)))
              (map ddot_edge_line d).
Proof.
  eapply Permutation_trans; [apply Permutation_app; apply strsort_perm|].
  rewrite <- map_app. apply Permutation_map, filter_negb_perm.
Qed.
