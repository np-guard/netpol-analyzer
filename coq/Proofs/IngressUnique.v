(* at most one {ingress-controller} line and at most one blocked-ingress warning per workload (C10): targets,
   lines and warnings are made in the order of the workloads, at most one from each *)
From Coq Require Import List.
From NP Require Import Basics World Build Connlist Ingress IngressProofs.
Import ListNotations.
Open Scope list_scope.

Inductive subseq {A} : list A -> list A -> Prop :=
| sub_nil : subseq [] []
| sub_skip x l1 l2 : subseq l1 l2 -> subseq l1 (x :: l2)
| sub_take x l1 l2 : subseq l1 l2 -> subseq (x :: l1) (x :: l2).

Lemma subseq_in {A} (l1 l2 : list A) x : subseq l1 l2 -> In x l1 -> In x l2.
Proof.
  intros Hs. induction Hs as [|y l1 l2 Hs IH|y l1 l2 Hs IH]; intros Hin.
  - destruct Hin.
  - right. apply IH. exact Hin.
  - destruct Hin as [Hin|Hin]; [left; exact Hin|right; apply IH; exact Hin].
Qed.
Lemma subseq_nodup {A} (l1 l2 : list A) : subseq l1 l2 -> NoDup l2 -> NoDup l1.
Proof.
  intros Hs. induction Hs as [|y l1 l2 Hs IH|y l1 l2 Hs IH]; intros Hnd.
  - constructor.
  - inversion Hnd; subst. apply IH. assumption.
  - inversion Hnd as [|z zs Hnotin Hnd']; subst. constructor; [|apply IH; exact Hnd'].
    intros Hin. apply Hnotin. apply (subseq_in _ _ _ Hs Hin).
Qed.
Lemma subseq_refl {A} (l : list A) : subseq l l.
Proof. induction l; constructor; assumption. Qed.

Lemma ing_targets_keys strict wls ia : subseq (map it_key (ing_targets strict wls ia)) (map fst wls).
Proof.
  unfold ing_targets. induction wls as [|e t IH]; cbn [flat_map map]; [constructor|].
  destruct (opt_union (kind_conn (negb strict) ia (ia_ings ia) (fst e)) (kind_conn true ia (ia_routes ia) (fst e)));
    [apply sub_take|apply sub_skip]; exact IH.
Qed.

Lemma ingress_lines_keys w focus ts : forall es ws,
  ingress_lines w focus ts = Ok (es, ws) ->
  subseq (map re_dst es) (map (fun t => RW (it_key t)) ts) /\ subseq (map iw_peer ws) (map it_key ts).
Proof.
  induction ts as [|t rest IH]; intros es ws H.
  - injection H as <- <-. split; constructor.
  - rewrite ingress_lines_cons in H. cbn [map]. destruct (in_focus focus t).
    + bind_inv H as o Eo. bind_inv H as r Er. destruct r as [es0 ws0]. destruct (IH _ _ Er) as [I1 I2].
      pose proof (target_out_key w t o Eo) as Hk. destruct o as [e|x]; injection H as <- <-; cbn [map].
      * destruct Hk as [_ ->]. split; [apply sub_take|apply sub_skip]; assumption.
      * rewrite Hk, target_warn_peer. split; [apply sub_skip|apply sub_take]; assumption.
    + destruct (IH _ _ H) as [I1 I2]. split; apply sub_skip; assumption.
Qed.

Lemma one_line_per_key strict w focus wls ia es ws :
  NoDup (map fst wls) -> ingress_lines w focus (ing_targets strict wls ia) = Ok (es, ws) ->
  NoDup (map re_dst es) /\ NoDup (map iw_peer ws).
Proof.
  intros Hnd H. destruct (ingress_lines_keys _ _ _ _ _ H) as [I1 I2].
  pose proof (subseq_nodup _ _ (ing_targets_keys strict wls ia) Hnd) as Hk.
  split; [|exact (subseq_nodup _ _ I2 Hk)].
  apply (subseq_nodup _ _ I1). rewrite <- (map_map it_key RW). apply FinFun.Injective_map_NoDup; [|exact Hk].
  intros a b Hab. injection Hab as Hab. exact Hab.
Qed.
