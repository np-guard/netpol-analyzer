(* The txt output of `list --exposure` is a function of the multiset of connections, of the set of exposed workloads
   and, per workload and direction, of the multiset of its exposure entries. *)
From Coq Require Import List Bool String Permutation Sorted.
From NP Require Import Basics Format XFormat FormatProofs.
Import ListNotations.
Open Scope string_scope.

Lemma forall2_refl_ext {A B} (f g : A -> list B) l :
  (forall x, Permutation (f x) (g x)) -> Forall2 (fun x y => Permutation (f x) (g y)) l l.
Proof. intros H. apply forall2_diag, H. Qed.

Definition xp_equiv (p q : xpeer) : Prop :=
  xp_str p = xp_str q /\ xp_ing_prot p = xp_ing_prot q /\ xp_eg_prot p = xp_eg_prot q /\
  Permutation (xp_ing p) (xp_ing q) /\ Permutation (xp_eg p) (xp_eg q).

Lemma xp_equiv_refl p : xp_equiv p p.
Proof. repeat split; apply Permutation_refl. Qed.

Lemma xp_equiv_inv p q : xp_equiv p q ->
  exists ing eg, Permutation (xp_ing p) ing /\ Permutation (xp_eg p) eg /\
                 q = mkXP (xp_str p) (xp_ing_prot p) (xp_eg_prot p) ing eg.
Proof.
  intros (E1 & E2 & E3 & P1 & P2). exists (xp_ing q), (xp_eg q).
  destruct q as [s ip ep il el]; cbn [xp_str xp_ing_prot xp_eg_prot xp_ing xp_eg] in *. rewrite E1, E2, E3. auto.
Qed.

Lemma xgress_rows_equiv es es' ingress p q :
  Permutation es es' -> xp_equiv p q -> Permutation (xgress_rows es ingress p) (xgress_rows es' ingress q).
Proof.
  intros Pe H. destruct (xp_equiv_inv p q H) as (ing & eg & P1 & P2 & ->).
  unfold xgress_rows, ip_rows. cbn [xp_str xp_ing_prot xp_eg_prot xp_ing xp_eg]. apply Permutation_app.
  - destruct ingress.
    + destruct (xp_ing_prot p); [apply Permutation_map; exact P1|apply Permutation_refl].
    + destruct (xp_eg_prot p); [apply Permutation_map; exact P2|apply Permutation_refl].
  - apply Permutation_flat_map, Pe.
Qed.

Lemma unprotected_lines_equiv p q : xp_equiv p q -> unprotected_lines p = unprotected_lines q.
Proof. intros H. destruct (xp_equiv_inv p q H) as (ing & eg & _ & _ & ->). reflexivity. Qed.

Lemma max_peer_len_equiv xps mid xps' :
  Permutation xps mid -> Forall2 xp_equiv mid xps' -> max_peer_len xps = max_peer_len xps'.
Proof.
  intros Pm Hq. transitivity (max_peer_len mid); unfold max_peer_len.
  - clear Hq. induction Pm as [|x l l' _ IH|x y l|l l' l'' _ IH1 _ IH2]; cbn [fold_right]; [reflexivity|rewrite IH; reflexivity| |congruence].
    rewrite !PeanoNat.Nat.max_assoc, (PeanoNat.Nat.max_comm (String.length (xp_str y))). reflexivity.
  - clear Pm. induction Hq as [|p q l l' (E & _) _ IH]; cbn [fold_right]; [reflexivity|]. rewrite E, IH. reflexivity.
Qed.

(* es' is es in another order; xps' is xps in another order, with the entries of each workload in another order *)
Section Reordered.
  Variables (es es' : list Connlist.rentry) (xps mid xps' : list xpeer).
  Hypothesis Pe : Permutation es es'.
  Hypothesis Pm : Permutation xps mid.
  Hypothesis Hq : Forall2 xp_equiv mid xps'.

  Lemma rows_equiv ingress :
    rowsort (flat_map (xgress_rows es ingress) xps) = rowsort (flat_map (xgress_rows es' ingress) xps').
  Proof.
    apply rowsort_perm_invariant, (flat_map_perm_upto xp_equiv _ _ _ _ _ Pm Hq).
    intros p q Hpq. apply xgress_rows_equiv; assumption.
  Qed.

  Lemma unprotected_equiv : strsort (flat_map unprotected_lines xps) = strsort (flat_map unprotected_lines xps').
  Proof.
    apply strsort_perm_invariant, (flat_map_perm_upto xp_equiv _ _ _ _ _ Pm Hq).
    intros p q Hpq. rewrite (unprotected_lines_equiv p q Hpq). apply Permutation_refl.
  Qed.

  Lemma exposure_txt_equiv : exposure_txt es xps = exposure_txt es' xps'.
  Proof.
    (* the shape of exposure_txt, its literals left as holes (see FormatProofs.diff_format_perm) *)
    exact (f_equal4 (fun n eg ing un =>
                       _ ++ _ ++ subsection (map (xline _ n) eg) _ ++
                       subsection (map (xline _ n) ing) (match map (xline _ n) eg with [] => _ | _ :: _ => _ end ++ _) ++
                       subsection un _)
                    (max_peer_len_equiv xps mid xps' Pm Hq) (rows_equiv false) (rows_equiv true) unprotected_equiv).
  Qed.

  Theorem exposure_txt_order_independent : list_exposure_txt es xps = list_exposure_txt es' xps'.
  Proof. unfold list_exposure_txt. rewrite (list_txt_perm_invariant es es' Pe), exposure_txt_equiv. reflexivity. Qed.
End Reordered.

Corollary exposure_txt_perm_invariant es es' xps xps' :
  Permutation es es' -> Permutation xps xps' -> list_exposure_txt es xps = list_exposure_txt es' xps'.
Proof.
  intros Pe Px. apply (exposure_txt_order_independent es es' xps xps' xps' Pe Px). apply forall2_diag, xp_equiv_refl.
Qed.

(* C08.  sort.Slice compares (workload, other end) only and is not stable: when no two lines of a section share both
   (xf_no_ties, evaluated by the check on every implementation result), any correct sort by that key gives rowsort *)
Definition key_leb (a b : row) : bool :=
  if String.eqb (r_src a) (r_src b) then String.leb (r_dst a) (r_dst b) else String.leb (r_src a) (r_src b).

Lemma key_nodupb_spec l : key_nodupb l = true -> NoDup (map (fun r => (r_src r, r_dst r)) l).
Proof.
  induction l as [|r t IH]; cbn [key_nodupb map]; intros H; [constructor|].
  apply andb_true_iff in H. destruct H as [H1 H2]. constructor; [|exact (IH H2)].
  intros Hin. apply in_map_iff in Hin. destruct Hin as (q & E & Hq). injection E as E1 E2.
  apply negb_true_iff, not_true_iff_false in H1. apply H1, existsb_exists. exists q. rewrite E1, E2, !String.eqb_refl. auto.
Qed.

Theorem key_sort_is_rowsort (srt : list row -> list row) l :
  key_nodupb l = true ->
  Permutation (srt l) l -> StronglySorted (fun a b => key_leb a b = true) (srt l) -> srt l = rowsort l.
Proof.
  intros Hn Hp Hs. apply rowsort_is_the_sort; [exact Hp|].
  apply key_nodupb_spec, (Permutation_NoDup (Permutation_map _ (Permutation_sym Hp))) in Hn. clear Hp. revert Hn.
  induction Hs as [|a t _ IH Ha]; cbn [map]; intros Hn; [constructor|].
  apply NoDup_cons_iff in Hn. destruct Hn as [Hk Hn]. constructor; [exact (IH Hn)|].
  (* a row b after a has another key, and where the keys differ the two orders agree *)
  rewrite Forall_forall in *. intros b Hb. specialize (Ha b Hb). unfold key_leb in Ha. unfold row_leb.
  destruct (String.eqb_spec (r_src a) (r_src b)) as [E1|_]; [|exact Ha].
  destruct (String.eqb_spec (r_dst a) (r_dst b)) as [E2|_]; [|exact Ha].
  destruct Hk. apply in_map_iff. exists b. rewrite E1, E2. auto.
Qed.
