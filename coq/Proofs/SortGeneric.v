(* Sorting is a function of the multiset: two sorted permutations of one list are equal as soon as the order is
   antisymmetric on the members of the list, so any correct sort.Strings / sort.Slice gives one answer, and the insertion
   sort of the models is such a sort.  The test [leb] that drives the insertion need not be the order [R] the result is
   sorted by: it is enough that a positive answer implies [R] and a negative one its converse, which covers a strict
   comparison of keys whose result is sorted by the keys' non-strict order (admin policies by priority). *)
From Coq Require Import List NArith String Permutation Sorting.Sorted.
Import ListNotations.

Theorem sorted_perm_eq {A} (R : A -> A -> Prop) l1 : forall l2,
  (forall a b, In a l1 -> In b l1 -> R a b -> R b a -> a = b) ->
  StronglySorted R l1 -> StronglySorted R l2 -> Permutation l1 l2 -> l1 = l2.
Proof.
  induction l1 as [|a t1 IH]; intros l2 Hanti H1 H2 Hp.
  - apply Permutation_nil in Hp. subst; reflexivity.
  - destruct l2 as [|b t2]; [apply Permutation_sym, Permutation_nil in Hp; discriminate|].
    apply StronglySorted_inv in H1, H2. destruct H1 as [Ht1 Ha], H2 as [Ht2 Hb].
    rewrite Forall_forall in Ha, Hb.
    assert (Hab : a = b).
    { assert (Ia : In a (b :: t2)) by (apply (Permutation_in _ Hp); left; reflexivity).
      assert (Ib : In b (a :: t1)) by (apply (Permutation_in _ (Permutation_sym Hp)); left; reflexivity).
      destruct Ia as [<- | Ia]; [reflexivity|]. destruct Ib as [<- | Ib]; [reflexivity|].
      apply Hanti; [left; reflexivity | right; exact Ib | apply Ha; exact Ib | apply Hb; exact Ia]. }
    subst b. f_equal. apply IH; try assumption.
    + intros x y Hx Hy. apply Hanti; right; assumption.
    + apply (Permutation_cons_inv Hp).
Qed.

Section Sort.
  Variable A : Type.
  Variable leb : A -> A -> bool.

  Fixpoint insert (x : A) (l : list A) : list A :=
    match l with
    | [] => [x]
    | y :: t => if leb x y then x :: l else y :: insert x t
    end.
  Definition isort (l : list A) : list A := fold_right insert [] l.

  Lemma insert_perm x l : Permutation (insert x l) (x :: l).
  Proof.
    induction l as [|y t IH]; cbn [insert]; [apply Permutation_refl|].
    destruct (leb x y); [apply Permutation_refl|].
    eapply Permutation_trans; [apply perm_skip, IH | apply perm_swap].
  Qed.

  Lemma isort_perm l : Permutation (isort l) l.
  Proof.
    induction l as [|a t IH]; cbn; [apply perm_nil|].
    eapply Permutation_trans; [apply insert_perm | apply perm_skip, IH].
  Qed.

  Section Order.
    Variable R : A -> A -> Prop.
    Hypothesis R_trans : forall a b c, R a b -> R b c -> R a c.
    Hypothesis leb_true : forall a b, leb a b = true -> R a b.
    Hypothesis leb_false : forall a b, leb a b = false -> R b a.

    Lemma insert_sorted x l : StronglySorted R l -> StronglySorted R (insert x l).
    Proof.
      induction l as [|y t IH]; cbn [insert]; intros Hs.
      - constructor; constructor.
      - apply StronglySorted_inv in Hs. destruct Hs as [Ht Hy].
        destruct (leb x y) eqn:E.
        + constructor; [constructor; assumption|]. constructor; [apply leb_true, E|].
          apply (Forall_impl _ (fun z => R_trans x y z (leb_true _ _ E)) Hy).
        + constructor; [apply IH; exact Ht|].
          apply (Permutation_Forall (Permutation_sym (insert_perm x t))).
          constructor; [apply leb_false, E | exact Hy].
    Qed.

    Lemma isort_sorted l : StronglySorted R (isort l).
    Proof. induction l as [|a t IH]; cbn; [constructor | apply insert_sorted; exact IH]. Qed.

    Theorem sorted_is_isort l s :
      (forall a b, In a l -> In b l -> R a b -> R b a -> a = b) ->
      Permutation s l -> StronglySorted R s -> s = isort l.
    Proof.
      intros Hanti Hp Hs. apply (sorted_perm_eq R); [|exact Hs | apply isort_sorted|].
      - intros a b Ha Hb. apply Hanti; apply (Permutation_in _ Hp); assumption.
      - apply (Permutation_trans Hp), Permutation_sym, isort_perm.
    Qed.

    Theorem isort_unique l1 l2 :
      (forall a b, In a l1 -> In b l1 -> R a b -> R b a -> a = b) ->
      Permutation l1 l2 -> isort l1 = isort l2.
    Proof.
      intros Hanti Hp. apply sorted_is_isort; [| |apply isort_sorted].
      - intros a b Ha Hb. apply Hanti; apply (Permutation_in _ (Permutation_sym Hp)); assumption.
      - apply (Permutation_trans (isort_perm l1) Hp).
    Qed.
  End Order.

  Hypothesis leb_total : forall a b, leb a b = true \/ leb b a = true.
  Hypothesis leb_antisym : forall a b, leb a b = true -> leb b a = true -> a = b.
  Hypothesis leb_trans : forall a b c, leb a b = true -> leb b c = true -> leb a c = true.

  Definition le (a b : A) : Prop := leb a b = true.

  Lemma leb_false_le a b : leb a b = false -> le b a.
  Proof. intros E. destruct (leb_total a b) as [H | H]; [congruence | exact H]. Qed.

  Theorem isort_perm_invariant l1 l2 : Permutation l1 l2 -> isort l1 = isort l2.
  Proof.
    apply (isort_unique le leb_trans (fun a b H => H) leb_false_le).
    intros a b _ _. apply leb_antisym.
  Qed.

  Theorem any_sort_agrees (srt : list A -> list A) l :
    Permutation (srt l) l -> StronglySorted le (srt l) -> srt l = isort l.
  Proof.
    apply (sorted_is_isort le leb_trans (fun a b H => H) leb_false_le).
    intros a b _ _. apply leb_antisym.
  Qed.
End Sort.

Lemma ascii_compare_trans_lt a b c :
  Ascii.compare a b = Lt -> Ascii.compare b c = Lt -> Ascii.compare a c = Lt.
Proof.
  unfold Ascii.compare. intros H1 H2. apply N.compare_lt_iff in H1, H2.
  apply N.compare_lt_iff, (N.lt_trans _ _ _ H1 H2).
Qed.

Lemma string_compare_refl s : String.compare s s = Eq.
Proof.
  induction s as [|a s IH]; cbn [String.compare]; [reflexivity|].
  unfold Ascii.compare. rewrite N.compare_refl. exact IH.
Qed.

Lemma string_lt_trans a : forall b c,
  String.compare a b = Lt -> String.compare b c = Lt -> String.compare a c = Lt.
Proof.
  induction a as [|x a IH]; intros [|y b] [|z c]; cbn [String.compare]; try discriminate; try reflexivity.
  destruct (Ascii.compare x y) eqn:Exy; try discriminate.
  - apply Ascii.compare_eq_iff in Exy. subst y.
    destruct (Ascii.compare x z) eqn:Exz; try discriminate; [apply IH | reflexivity].
  - intros _. destruct (Ascii.compare y z) eqn:Eyz; try discriminate.
    + apply Ascii.compare_eq_iff in Eyz. subst z. rewrite Exy. reflexivity.
    + intros _. rewrite (ascii_compare_trans_lt _ _ _ Exy Eyz). reflexivity.
Qed.

Lemma string_leb_trans a b c : String.leb a b = true -> String.leb b c = true -> String.leb a c = true.
Proof.
  unfold String.leb.
  destruct (String.compare a b) eqn:Eab; try discriminate; intros _;
  destruct (String.compare b c) eqn:Ebc; try discriminate; intros _.
  - apply String.compare_eq_iff in Eab, Ebc. subst. rewrite string_compare_refl. reflexivity.
  - apply String.compare_eq_iff in Eab. subst. rewrite Ebc. reflexivity.
  - apply String.compare_eq_iff in Ebc. subst. rewrite Eab. reflexivity.
  - rewrite (string_lt_trans _ _ _ Eab Ebc). reflexivity.
Qed.

Definition ssort : list string -> list string := isort string String.leb.

Theorem ssort_perm_invariant l1 l2 : Permutation l1 l2 -> ssort l1 = ssort l2.
Proof. apply isort_perm_invariant; [apply String.leb_total | apply String.leb_antisym | apply string_leb_trans]. Qed.

Theorem ssort_is_the_sort (srt : list string -> list string) l :
  Permutation (srt l) l -> StronglySorted (fun a b => String.leb a b = true) (srt l) -> srt l = ssort l.
Proof. apply any_sort_agrees; [apply String.leb_total | apply String.leb_antisym | apply string_leb_trans]. Qed.
