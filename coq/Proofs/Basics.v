(* What several proof files need and neither the library nor the model states: the outcome monad of Model/World.v,
   then list facts by subject, in this order: existsb; forallb and filter; map, fold_left, flat_map and match;
   Forall and Forall2; Permutation; NoDup. *)
From Coq Require Import List ZArith Bool Permutation.
From NP Require Import World.
Import ListNotations.

Lemma bind_ok {A B} (x : outcome A) (f : A -> outcome B) b :
  bind x f = Ok b -> exists a, x = Ok a /\ f a = Ok b.
Proof. destruct x as [a|e]; cbn [bind]; intros H; [exists a; split; [reflexivity|exact H]|discriminate H]. Qed.

Tactic Notation "bind_inv" hyp(H) "as" simple_intropattern(a) ident(E) :=
  apply bind_ok in H; destruct H as (a & E & H).

Lemma is_ok_ex {A} (x : outcome A) : is_ok x = true -> exists a, x = Ok a.
Proof. destruct x as [a|]; [exists a; reflexivity | discriminate]. Qed.

Definition refines {A} (a b : outcome A) : Prop := forall v, a = Ok v -> b = Ok v.

Lemma refines_refl {A} (a : outcome A) : refines a a.
Proof. intros v H. exact H. Qed.

Lemma refines_bind {A B} (a a' : outcome A) (f f' : A -> outcome B) :
  refines a a' -> (forall x, a = Ok x -> refines (f x) (f' x)) -> refines (bind a f) (bind a' f').
Proof. intros Ha Hf v H. bind_inv H as x E. rewrite (Ha x E). exact (Hf x E v H). Qed.

Lemma str_mem_In x l : str_mem x l = true <-> In x l.
Proof.
  induction l as [|y t IH]; cbn [str_mem In]; [split; [discriminate|contradiction]|].
  rewrite orb_true_iff, String.eqb_eq, IH. split; (intros [H|H]; [left; symmetry; exact H|right; exact H]).
Qed.

Lemma leb_antisym_eqb (a n : Z) : ((a <=? n) && (n <=? a) = (a =? n))%Z.
Proof.
  destruct (Z.eqb_spec a n) as [->|Hne]; [rewrite Z.leb_refl; reflexivity|].
  destruct (Z.leb_spec a n) as [H1|_], (Z.leb_spec n a) as [H2|_]; try reflexivity.
  destruct Hne. apply Z.le_antisymm; assumption.
Qed.

Section Existsb.
  Context {A : Type}.
  Implicit Types (f g : A -> bool) (l : list A).

  Lemma existsb_ext_in f g l : (forall x, In x l -> f x = g x) -> existsb f l = existsb g l.
  Proof.
    induction l as [|a t IH]; cbn [existsb]; intros H; [reflexivity|].
    rewrite (H a (or_introl eq_refl)), IH; [reflexivity|]. intros x Hx. apply H. right. exact Hx.
  Qed.

  Lemma existsb_ext f g l : (forall x, f x = g x) -> existsb f l = existsb g l.
  Proof. intros H. apply existsb_ext_in. intros x _. apply H. Qed.

  Lemma existsb_impl f g l :
    (forall x, In x l -> f x = true -> g x = true) -> existsb f l = true -> existsb g l = true.
  Proof.
    rewrite !existsb_exists. intros H (x & Hin & Hx). exists x. split; [exact Hin|apply H; assumption].
  Qed.

  Lemma existsb_incl f l l' : incl l l' -> existsb f l = true -> existsb f l' = true.
  Proof.
    rewrite !existsb_exists. intros Hi (x & Hx & Hf). exists x. split; [apply Hi, Hx | exact Hf].
  Qed.

  Lemma existsb_false l : existsb (fun _ => false) l = false.
  Proof. induction l as [|x t IH]; [reflexivity|exact IH]. Qed.

  Lemma existsb_and_const (b : bool) f l : existsb (fun x => b && f x) l = b && existsb f l.
  Proof.
    destruct b; cbn [andb]; [apply existsb_ext; reflexivity|apply existsb_false].
  Qed.

  Lemma existsb_insert f l k x : existsb f (firstn k l ++ x :: skipn k l) = f x || existsb f l.
  Proof.
    pose proof (existsb_app f (firstn k l) (skipn k l)) as E. rewrite firstn_skipn in E.
    rewrite E, existsb_app. cbn [existsb]. destruct (existsb f (firstn k l)), (f x); reflexivity.
  Qed.

  Lemma existsb_filter f g l : existsb g (filter f l) = existsb (fun x => f x && g x) l.
  Proof.
    induction l as [|a t IH]; cbn [filter existsb]; [reflexivity|].
    destruct (f a); cbn [existsb andb orb]; rewrite IH; reflexivity.
  Qed.

  Lemma existsb_filter_nil f l : existsb f l = match filter f l with [] => false | _ => true end.
  Proof. induction l as [|a t IH]; cbn [existsb filter]; [reflexivity|]. destruct (f a); [reflexivity|exact IH]. Qed.

  Lemma existsb_filter_nonempty f l : (0 < length (filter f l))%nat -> existsb f l = true.
  Proof. rewrite existsb_filter_nil. destruct (filter f l); [intros H; inversion H|reflexivity]. Qed.

  Lemma existsb_perm f l l' : Permutation l l' -> existsb f l = existsb f l'.
  Proof.
    induction 1 as [|x l l' _ IH|x y l|l l' l'' _ IH1 _ IH2]; cbn [existsb].
    - reflexivity.
    - rewrite IH. reflexivity.
    - destruct (f x), (f y); reflexivity.
    - congruence.
  Qed.
End Existsb.

Lemma existsb_forall2 {A B} (R : A -> B -> Prop) (f : A -> bool) (g : B -> bool) l l' :
  Forall2 R l l' -> (forall x y, R x y -> f x = g y) -> existsb f l = existsb g l'.
Proof.
  intros H Hfg. induction H as [|x y l l' Hxy _ IH]; cbn [existsb]; [reflexivity|].
  rewrite (Hfg x y Hxy), IH. reflexivity.
Qed.

(* two lists that agree up to the order and, element by element, up to R: the way two spellings of one input are
   compared (OrderProofs, XFormatProofs) *)
Lemma existsb_equiv {A B} (R : A -> B -> Prop) (f : A -> bool) (g : B -> bool) l l' :
  (exists m, Permutation l m /\ Forall2 R m l') -> (forall x y, R x y -> f x = g y) -> existsb f l = existsb g l'.
Proof. intros (m & Hp & Hf) Hfg. rewrite (existsb_perm f l m Hp). exact (existsb_forall2 R f g m l' Hf Hfg). Qed.

Lemma forallb_dir {A} (f : A -> bool) (ingress : bool) l1 l2 :
  forallb f l1 && forallb f l2 = true -> forallb f (if ingress then l1 else l2) = true.
Proof. intros H. apply andb_true_iff in H. destruct ingress; apply H. Qed.

Lemma forallb_filter {A} (f g : A -> bool) l : forallb f l = true -> forallb f (filter g l) = true.
Proof.
  rewrite !forallb_forall. intros H x Hx. apply filter_In in Hx. apply H, Hx.
Qed.

Lemma forallb_false_exists {A} (f : A -> bool) l : forallb f l = false -> exists x, In x l /\ f x = false.
Proof.
  induction l as [|a t IH]; cbn [forallb]; [discriminate|].
  destruct (f a) eqn:Ha; cbn [andb]; [|exists a; split; [left; reflexivity | exact Ha]].
  intros H. destruct (IH H) as (x & Hx & Hf). exists x. split; [right; exact Hx | exact Hf].
Qed.

Lemma forallb_Forall {A} (f : A -> bool) (P : A -> Prop) l : (forall x, f x = true -> P x) -> forallb f l = true -> Forall P l.
Proof. intros HfP H. apply Forall_forall. intros x Hx. apply HfP. rewrite forallb_forall in H. exact (H x Hx). Qed.

Lemma filter_none {A} (f : A -> bool) l : Forall (fun x => f x = false) l -> filter f l = [].
Proof. induction 1 as [|x l Hx _ IH]; cbn [filter]; [reflexivity|]. rewrite Hx. exact IH. Qed.

Lemma filter_all {A} (f : A -> bool) l : Forall (fun x => f x = true) l -> filter f l = l.
Proof. induction 1 as [|x l Hx _ IH]; cbn [filter]; [reflexivity|]. rewrite Hx, IH. reflexivity. Qed.

Lemma fold_left_ext_in {A B} (f g : A -> B -> A) (l : list B) :
  (forall a x, In x l -> f a x = g a x) -> forall a, fold_left f l a = fold_left g l a.
Proof.
  induction l as [|x t IH]; intros H a; cbn [fold_left]; [reflexivity|].
  rewrite (H a x (or_introl eq_refl)). apply IH. intros a0 y Hy. apply H. right. exact Hy.
Qed.

Lemma flat_map_ext_in {A B} (f g : A -> list B) (l : list A) :
  (forall x, In x l -> f x = g x) -> flat_map f l = flat_map g l.
Proof.
  induction l as [|x t IH]; intros H; cbn [flat_map]; [reflexivity|].
  rewrite (H x (or_introl eq_refl)), IH; [reflexivity|]. intros y Hy. apply H. right. exact Hy.
Qed.

(* the Spec functions treat an absent list of peers, ports or policyTypes apart *)
Lemma list_case_equiv {A B C} (l : list A) (l' : list B) (d d' e e' : C) :
  (l = [] <-> l' = []) -> d = d' -> e = e' ->
  match l with [] => d | _ :: _ => e end = match l' with [] => d' | _ :: _ => e' end.
Proof.
  intros [N N'] <- <-. destruct l, l'; [reflexivity|discriminate (N eq_refl)|discriminate (N' eq_refl)|reflexivity].
Qed.

Lemma map_inj_on {A B} (f : A -> B) (P : A -> Prop) (l l' : list A) :
  (forall x y, P x -> P y -> f x = f y -> x = y) -> Forall P l -> Forall P l' -> map f l = map f l' -> l = l'.
Proof.
  intros Hf Hl. revert l'. induction Hl as [|x l Px _ IH]; intros [|y l'] Hl' H; try discriminate H; [reflexivity|].
  inversion Hl' as [|? ? Py Pl']; subst. injection H as E1 E2. f_equal; [exact (Hf x y Px Py E1)|exact (IH l' Pl' E2)].
Qed.

Lemma forall2_impl {A B} (P Q : A -> B -> Prop) l l' :
  (forall x y, P x y -> Q x y) -> Forall2 P l l' -> Forall2 Q l l'.
Proof. intros H F. induction F; constructor; auto. Qed.

Lemma forall2_diag {A} (R : A -> A -> Prop) l : (forall x, R x x) -> Forall2 R l l.
Proof. intros HR. induction l; constructor; [apply HR|assumption]. Qed.

Lemma forallb_perm {A} (f : A -> bool) l l' : Permutation l l' -> forallb f l = forallb f l'.
Proof.
  induction 1 as [|x l l' _ IH|x y l|l l' l'' _ IH1 _ IH2]; cbn [forallb].
  - reflexivity.
  - rewrite IH. reflexivity.
  - destruct (f x), (f y); reflexivity.
  - congruence.
Qed.

Lemma filter_perm {A} (f : A -> bool) l l' : Permutation l l' -> Permutation (filter f l) (filter f l').
Proof.
  induction 1 as [|x l l' _ IH|x y l|l l' l'' _ IH1 _ IH2]; cbn [filter].
  - constructor.
  - destruct (f x); [constructor|]; exact IH.
  - destruct (f x), (f y); try reflexivity. constructor.
  - exact (perm_trans IH1 IH2).
Qed.

Lemma filter_negb_perm {A} (f : A -> bool) l : Permutation (filter (fun x => negb (f x)) l ++ filter f l) l.
Proof.
  induction l as [|x t IH]; [constructor|]. cbn [filter]. destruct (f x); cbn [negb app].
  - apply Permutation_sym, Permutation_cons_app, Permutation_sym, IH.
  - constructor. exact IH.
Qed.

Lemma perm_nil_iff {A} (l l' : list A) : Permutation l l' -> (l = [] <-> l' = []).
Proof.
  intros H. split; intros ->; [exact (Permutation_nil H)|exact (Permutation_nil (Permutation_sym H))].
Qed.

Lemma equiv_nil_iff {A B} (R : A -> B -> Prop) l l' :
  (exists m, Permutation l m /\ Forall2 R m l') -> (l = [] <-> l' = []).
Proof. intros (m & Hp & Hf). rewrite (perm_nil_iff l m Hp). split; intros ->; inversion Hf; reflexivity. Qed.

Lemma flat_map_forall2 {A B C} (f : A -> list C) (g : B -> list C) l l' :
  Forall2 (fun x y => Permutation (f x) (g y)) l l' -> Permutation (flat_map f l) (flat_map g l').
Proof.
  intros H. induction H as [|x y l l' Hxy _ IH]; cbn [flat_map]; [constructor|]. apply Permutation_app; assumption.
Qed.

Lemma flat_map_perm_upto {A B C} (R : A -> B -> Prop) (f : A -> list C) (g : B -> list C) l m l' :
  Permutation l m -> Forall2 R m l' -> (forall x y, R x y -> Permutation (f x) (g y)) ->
  Permutation (flat_map f l) (flat_map g l').
Proof.
  intros P F H. apply (perm_trans (Permutation_flat_map f P)).
  apply flat_map_forall2. exact (forall2_impl _ _ _ _ H F).
Qed.

Lemma Forall_image {A B} (P : A -> Prop) (Q : B -> Prop) (f : A -> B) L l :
  (forall x, P x -> Q (f x)) -> Forall P l -> Permutation L (map f l) -> Forall Q L.
Proof.
  intros HPQ Hl HL. apply (Permutation_Forall (Permutation_sym HL)). apply Forall_map.
  exact (Forall_impl _ HPQ Hl).
Qed.

(* how a sorted output gives back the unsorted result *)
Lemma image_determines {A B} (P : A -> Prop) (f : A -> B) L l l' :
  (forall x y, P x -> P y -> f x = f y -> x = y) -> Forall P l -> Forall P l' ->
  Permutation L (map f l) -> Permutation L (map f l') -> Permutation l l'.
Proof.
  intros Hf Hl Hl' HL HL'.
  destruct (Permutation_map_inv f l' (Permutation_trans (Permutation_sym HL) HL')) as (m & E & Hm).
  apply (map_inj_on f P) in E; [subst m; apply Permutation_sym; exact Hm|exact Hf|exact Hl|].
  exact (Permutation_Forall Hm Hl').
Qed.

Lemma NoDup_snoc {A} (l : list A) x : NoDup l -> ~ In x l -> NoDup (l ++ [x]).
Proof.
  intros Hl Hx. apply (Permutation_NoDup (l := x :: l)); [|constructor; assumption].
  rewrite <- (Permutation_cons_append l x). reflexivity.
Qed.

Lemma NoDup_map_inj {A B} (f : A -> B) l a b :
  NoDup (map f l) -> In a l -> In b l -> f a = f b -> a = b.
Proof.
  induction l as [|x t IH]; cbn [map]; intros Hnd Ha Hb E; [destruct Ha|].
  inversion Hnd as [|y ys Hnin Hnd']; subst.
  destruct Ha as [-> | Ha], Hb as [-> | Hb]; [reflexivity | | | apply IH; assumption];
    exfalso; apply Hnin; [rewrite E | rewrite <- E]; apply in_map; assumption.
Qed.

Lemma NoDup_map_filter {A B} (f : A -> B) (g : A -> bool) l : NoDup (map f l) -> NoDup (map f (filter g l)).
Proof.
  induction l as [|a t IH]; cbn [filter map]; intros Hnd; [constructor|].
  inversion Hnd as [|x xs Hnin Hnd']; subst.
  destruct (g a); cbn [map]; [constructor|]; try (apply IH; exact Hnd').
  intros Hin. apply Hnin. apply in_map_iff in Hin. destruct Hin as (y & <- & Hy).
  apply in_map. apply filter_In in Hy. apply Hy.
Qed.
