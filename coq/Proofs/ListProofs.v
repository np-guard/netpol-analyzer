(* The report of Model/Connlist.v lists exactly the non-empty connection sets of the included peer pairs (C01), and
   --focusworkload is a pure filter of the full report (C16).  First what its peers are: the IP blocks and one peer per
   workload string (C17), each standing for a pod of the input. *)
From Coq Require Import List ZArith Bool String.
From NP Require Import ConnSet ConnSetProofs World Eval Spec EvalProofs Build Connlist Basics.
Import ListNotations.
Open Scope list_scope.

(* used by WfProofs, DiffInj *)
Lemma rpeer_eqb_spec a b : rpeer_eqb a b = true <-> a = b.
Proof.
  destruct a as [s|a1 a2], b as [t|b1 b2]; cbn [rpeer_eqb]; split; intros H; try discriminate.
  - apply String.eqb_eq in H. congruence.
  - injection H as <-. apply String.eqb_refl.
  - apply andb_true_iff in H. destruct H as [H1 H2]. apply Z.eqb_eq in H1, H2. congruence.
  - injection H as <- <-. rewrite !Z.eqb_refl. reflexivity.
Qed.

Lemma workloads_of_subset pods : forall acc k p,
  In (k, p) (workloads_of pods acc) -> (exists k0, In (k0, p) acc) \/ In p pods.
Proof.
  induction pods as [|q t IH]; intros acc k p H; cbn [workloads_of] in H.
  - left. eauto.
  - apply IH in H. destruct H as [(k0 & H) | H]; [|right; right; exact H].
    destruct (existsb (fun e => String.eqb (fst e) (wl_str q)) acc).
    + apply in_map_iff in H. destruct H as ([k1 p1] & He & Hin). cbn [fst] in He.
      destruct (String.eqb k1 (wl_str q)); injection He as <- <-; [right; left; reflexivity | left; eauto].
    + apply in_app_or in H. destruct H as [H | [H | []]]; [left; eauto|]. injection H as <- <-. right; left; reflexivity.
Qed.

Lemma workloads_of_keys pods : forall acc,
  NoDup (map fst acc) -> NoDup (map fst (workloads_of pods acc)).
Proof.
  induction pods as [|p t IH]; intros acc Hnd; cbn [workloads_of]; [exact Hnd|].
  apply IH.
  destruct (existsb (fun e => String.eqb (fst e) (wl_str p)) acc) eqn:Hex.
  - (* the entry of that key is overwritten: the keys stay as they are *)
    rewrite map_map, (map_ext _ fst); [exact Hnd|].
    intros [k q]. cbn [fst]. destruct (String.eqb_spec k (wl_str p)) as [->|_]; reflexivity.
  - rewrite map_app. apply NoDup_snoc; [exact Hnd|].
    intros Hin. apply in_map_iff in Hin. destruct Hin as ([k q] & Hk & Hin). cbn [fst] in Hk. subst k.
    rewrite <- not_true_iff_false, existsb_exists in Hex. apply Hex. exists (wl_str p, q). split; [exact Hin | apply String.eqb_refl].
Qed.

(* C17 *)
Theorem one_peer_per_workload pods : NoDup (map fst (workloads_of pods [])).
Proof. apply workloads_of_keys. constructor. Qed.

Lemma mpeers_of_inv w blocks m :
  In m (mpeers_of w blocks) ->
  (exists b, In b blocks /\ m = mkMP (RIP (fst b) (snd b)) None b EmptyString EmptyString) \/
  (exists k p, In (k, p) (workloads_of (w_pods w) []) /\ In p (w_pods w) /\
               m = mkMP (RW k) (Some p) (0, 0) (wl_name_of p) (p_ns p)).
Proof.
  unfold mpeers_of. intros Hm. apply in_app_or in Hm. destruct Hm as [Hm|Hm]; apply in_map_iff in Hm.
  - destruct Hm as (b & <- & Hb). left. exists b. auto.
  - destruct Hm as ([k p] & <- & Hin). right. exists k, p. split; [exact Hin|]. split; [|reflexivity].
    apply workloads_of_subset in Hin. destruct Hin as [(k0 & []) | Hin]. exact Hin.
Qed.

Lemma pod_peer_okb w p dp : pod_peer w p = Ok dp -> peer_okb dp = pod_okb p.
Proof. unfold pod_peer. destruct (find_ns (p_ns p) (w_nss w)); [intros [= <-]; reflexivity|discriminate]. Qed.

Lemma eval_peer_okb w blocks m x :
  forallb pod_okb (w_pods w) = true -> In m (mpeers_of w blocks) -> eval_peer w m = Ok x -> peer_okb x = true.
Proof.
  intros Hpods Hm H. unfold eval_peer in H.
  destruct (mpeers_of_inv _ _ _ Hm) as [(b & _ & ->) | (k & p & _ & Hp & ->)]; cbn [mp_pod] in H.
  - injection H as <-. reflexivity.
  - rewrite (pod_peer_okb _ _ _ H). rewrite forallb_forall in Hpods. exact (Hpods p Hp).
Qed.

(* what one iteration of the inner loop of `getConnectionsBetweenPeers` appends, after `includePairOfWorkloads` *)
Definition pair_entry (w : world) (focus : string) (s d : mpeer) : list rentry :=
  if include_pair focus s d
  then match pair_conns w s d with
       | Ok c => if cs_isempty c then [] else [mkRE (mp_r s) (mp_r d) c]
       | Err _ => []
       end
  else [].

Lemma pair_entry_sound w focus s d e :
  In e (pair_entry w focus s d) ->
  exists sp dp,
    include_pair focus s d = true /\ re_src e = mp_r s /\ re_dst e = mp_r d /\
    eval_peer w s = Ok sp /\ eval_peer w d = Ok dp /\
    all_conns w sp dp = Ok (re_conn e) /\ cs_isempty (re_conn e) = false.
Proof.
  unfold pair_entry. destruct (include_pair focus s d); [|contradiction].
  destruct (pair_conns w s d) as [c|] eqn:Hc; [|contradiction].
  destruct (cs_isempty c) eqn:He; [contradiction|]. intros [<- | []].
  unfold pair_conns in Hc. bind_inv Hc as sp Hs. bind_inv Hc as dp Hd. exists sp, dp. auto 10.
Qed.

Lemma pair_entry_complete w focus s d sp dp c :
  include_pair focus s d = true -> eval_peer w s = Ok sp -> eval_peer w d = Ok dp ->
  all_conns w sp dp = Ok c -> cs_isempty c = false ->
  pair_entry w focus s d = [mkRE (mp_r s) (mp_r d) c].
Proof.
  intros Hinc Hs Hd Hc He. unfold pair_entry, pair_conns. rewrite Hinc, Hs, Hd. cbn [bind]. rewrite Hc, He.
  reflexivity.
Qed.

Lemma row_conns_eq w focus s ds : forall es,
  row_conns w focus s ds = Ok es -> es = flat_map (pair_entry w focus s) ds.
Proof.
  induction ds as [|d t IH]; intros es H; cbn [row_conns flat_map] in *.
  - injection H as <-. reflexivity.
  - unfold pair_entry at 1. destruct (include_pair focus s d); [|exact (IH es H)].
    bind_inv H as c Hc. bind_inv H as rest Hr. injection H as <-. rewrite Hc, <- (IH rest Hr).
    destruct (cs_isempty c); reflexivity.
Qed.

Lemma all_rows_eq w focus ss ds : forall es,
  all_rows w focus ss ds = Ok es -> es = flat_map (fun s => flat_map (pair_entry w focus s) ds) ss.
Proof.
  induction ss as [|s t IH]; intros es H; cbn [all_rows flat_map] in *.
  - injection H as <-. reflexivity.
  - bind_inv H as a Ha. bind_inv H as b Hb. injection H as <-.
    rewrite (row_conns_eq _ _ _ _ _ Ha), (IH b Hb). reflexivity.
Qed.

Lemma list_world_inv w focus ingr r :
  list_world w focus ingr = Ok r ->
  let peers := mpeers_of w (ip_partition_of w) in
  (w_pods w = [] /\ r = mkLR [] [] false) \/
  (String.eqb focus EmptyString = false /\ r = mkLR [] [] true) \/
  r = mkLR (flat_map (fun s => flat_map (pair_entry w focus s) peers) peers) (map mp_r peers) false.
Proof.
  unfold list_world, ip_partition_of. intros H.
  destruct (w_pods w); [left; injection H as <-; auto|]. right.
  destruct (owners_consistent _); cbn [negb] in H; [|discriminate H].
  bind_inv H as blocks Hb. rewrite Hb.
  destruct (negb (String.eqb focus EmptyString) && _) eqn:Hf.
  - apply andb_true_iff, proj1, negb_true_iff in Hf. left. injection H as <-. auto.
  - right. bind_inv H as es Hes. injection H as <-. rewrite (all_rows_eq _ _ _ _ _ Hes). reflexivity.
Qed.

Lemma list_world_entries_sound w focus hi r :
  list_world w focus hi = Ok r ->
  forall e, In e (lr_entries r) ->
  exists s d sp dp,
    In s (mpeers_of w (ip_partition_of w)) /\ In d (mpeers_of w (ip_partition_of w)) /\
    include_pair focus s d = true /\
    re_src e = mp_r s /\ re_dst e = mp_r d /\
    eval_peer w s = Ok sp /\ eval_peer w d = Ok dp /\
    all_conns w sp dp = Ok (re_conn e) /\ cs_isempty (re_conn e) = false.
Proof.
  intros H e He.
  destruct (list_world_inv _ _ _ _ H) as [[_ ->] | [[_ ->] | ->]]; [contradiction..|]. cbn [lr_entries] in He.
  apply in_flat_map in He. destruct He as (s & Hs & He). apply in_flat_map in He. destruct He as (d & Hd & He).
  destruct (pair_entry_sound _ _ _ _ _ He) as (sp & dp & Hrest). exists s, d, sp, dp. auto.
Qed.

Lemma list_world_entries_complete w focus hi r :
  list_world w focus hi = Ok r -> lr_warn r = false -> w_pods w <> [] ->
  forall s d sp dp c,
    In s (mpeers_of w (ip_partition_of w)) -> In d (mpeers_of w (ip_partition_of w)) ->
    include_pair focus s d = true ->
    eval_peer w s = Ok sp -> eval_peer w d = Ok dp -> all_conns w sp dp = Ok c ->
    cs_isempty c = false ->
    In (mkRE (mp_r s) (mp_r d) c) (lr_entries r).
Proof.
  intros H Hw Hne s d sp dp c Hs Hd Hinc Hsp Hdp Hc Hnemp.
  destruct (list_world_inv _ _ _ _ H) as [[Hp _] | [[_ ->] | ->]]; [contradiction | discriminate Hw|].
  cbn [lr_entries]. apply in_flat_map. exists s. split; [exact Hs|]. apply in_flat_map. exists d. split; [exact Hd|].
  rewrite (pair_entry_complete _ _ _ _ _ _ _ Hinc Hsp Hdp Hc Hnemp). left. reflexivity.
Qed.

Lemma include_pair_focus focus s d :
  include_pair focus s d = include_pair EmptyString s d && (mp_focus focus s || mp_focus focus d).
Proof. unfold include_pair. cbn. rewrite andb_true_r. reflexivity. Qed.

Lemma rentry_eta e : e = mkRE (re_src e) (re_dst e) (re_conn e).
Proof. destruct e; reflexivity. Qed.

(* C16 *)
Theorem focus_entries_subset w focus hi rf r0 :
  list_world w focus hi = Ok rf -> list_world w EmptyString hi = Ok r0 -> lr_warn rf = false -> w_pods w <> [] ->
  forall e, In e (lr_entries rf) ->
    In e (lr_entries r0) /\
    exists s d, In s (mpeers_of w (ip_partition_of w)) /\ In d (mpeers_of w (ip_partition_of w)) /\
                re_src e = mp_r s /\ re_dst e = mp_r d /\ (mp_focus focus s || mp_focus focus d) = true.
Proof.
  intros Hf H0 Hw Hne e He.
  destruct (list_world_entries_sound _ _ _ _ Hf e He) as (s & d & sp & dp & Hs & Hd & Hinc & Hsrc & Hdst & Hsp & Hdp & Hc & Hnemp).
  rewrite include_pair_focus in Hinc. apply andb_true_iff in Hinc. destruct Hinc as [Hinc0 Hfoc].
  split.
  - rewrite (rentry_eta e), Hsrc, Hdst.
    assert (Hw0 : lr_warn r0 = false)
      by (destruct (list_world_inv _ _ _ _ H0) as [[_ ->] | [[E _] | ->]]; [reflexivity | discriminate E | reflexivity]).
    eapply list_world_entries_complete; eassumption.
  - exists s, d. auto.
Qed.

(* C16 *)
Theorem focus_entries_complete w focus hi rf r0 :
  list_world w focus hi = Ok rf -> list_world w EmptyString hi = Ok r0 -> lr_warn rf = false -> w_pods w <> [] ->
  forall e s d, In e (lr_entries r0) ->
    In s (mpeers_of w (ip_partition_of w)) -> In d (mpeers_of w (ip_partition_of w)) ->
    re_src e = mp_r s -> re_dst e = mp_r d ->
    (forall s' d', In s' (mpeers_of w (ip_partition_of w)) -> In d' (mpeers_of w (ip_partition_of w)) ->
                   mp_r s' = mp_r s -> mp_r d' = mp_r d -> mp_focus focus s' || mp_focus focus d' = true) ->
    In e (lr_entries rf).
Proof.
  intros Hf H0 Hw Hne e s d He Hs Hd Hsrc Hdst Hfoc.
  destruct (list_world_entries_sound _ _ _ _ H0 e He) as (s' & d' & sp & dp & Hs' & Hd' & Hinc & Hsrc' & Hdst' & Hsp & Hdp & Hc & Hnemp).
  rewrite (rentry_eta e), Hsrc', Hdst'.
  eapply list_world_entries_complete; try eassumption.
  rewrite include_pair_focus, Hinc. cbn [andb]. apply Hfoc; try assumption; congruence.
Qed.

(* C16: a warning, not an error *)
Theorem focus_absent_empty_warning w focus blocks :
  w_pods w <> [] -> owners_consistent (w_pods w) = true -> referenced_blocks (w_nps w) = Ok blocks ->
  String.eqb focus EmptyString = false ->
  existsb (mp_focus focus) (mpeers_of w (ip_partition blocks)) = false ->
  list_world w focus false = Ok (mkLR [] [] true).
Proof.
  intros Hne Hc Hb Hf Hex. unfold list_world. destruct (w_pods w); [contradiction|].
  rewrite Hc, Hb. cbn [negb bind]. rewrite Hf, Hex, andb_false_r. reflexivity.
Qed.
