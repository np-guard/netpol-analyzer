(* The md, csv and json outputs of `list --exposure` are functions of the same multisets as the txt output: each is
   built from the sorted rows of the connections and of the two exposure sections. *)
From Coq Require Import List String Permutation.
From NP Require Import ConnSet Format XFormat XFormatMore FormatProofs XFormatProofs.
Import ListNotations.
Open Scope string_scope.

(* [F] is a format with holes for the literals (see FormatProofs.diff_format_perm) *)
Section Reordered.
  Variables (es es' : list Connlist.rentry) (xps mid xps' : list xpeer).
  Hypothesis Pe : Permutation es es'.
  Hypothesis Pm : Permutation xps mid.
  Hypothesis Hq : Forall2 xp_equiv mid xps'.

  Lemma exposure_rows_equiv {A} (F : list row -> list row -> list row -> A) :
    F (rowsort (map row_of es)) (eg_rows es xps) (ing_rows es xps) =
    F (rowsort (map row_of es')) (eg_rows es' xps') (ing_rows es' xps').
  Proof.
    unfold eg_rows, ing_rows. rewrite (list_rows_perm_invariant es es' Pe).
    rewrite (rows_equiv es es' xps mid xps' Pe Pm Hq false), (rows_equiv es es' xps mid xps' Pe Pm Hq true). reflexivity.
  Qed.

  Theorem exposure_md_order_independent : list_exposure_md es xps = list_exposure_md es' xps'.
  Proof.
    exact (exposure_rows_equiv (fun c eg ing =>
             join nl ((md_header :: map md_line c) ++ [_; md_subsection eg _; md_subsection ing _]))).
  Qed.

  Theorem exposure_csv_order_independent : list_exposure_csv es xps = list_exposure_csv es' xps'.
  Proof.
    exact (exposure_rows_equiv (fun c eg ing => _ ++ csv_rows c ++ _ ++ csv_subsection eg _ _ ++ csv_subsection ing _ _)).
  Qed.

  Theorem exposure_json_order_independent : list_exposure_json es xps = list_exposure_json es' xps'.
  Proof.
    exact (exposure_rows_equiv (fun c eg ing =>
             _ ++ _ ++ _ ++ _ ++ json_array 1 false (map _ c) ++ _ ++ _ ++ _ ++ _ ++ _ ++ _ ++ _ ++
             json_array 2 true (map _ eg) ++ _ ++ _ ++ _ ++ _ ++ json_array 2 true (map _ ing) ++ _)).
  Qed.
End Reordered.

(* the txt sections are made of the rows [eg_rows] and [ing_rows] that md, csv and json print *)
Theorem exposure_formats_share_rows es xps :
  exposure_txt es xps =
    (let n := max_peer_len xps in
     let eg := map (xline "=>" n) (eg_rows es xps) in
     let ing := map (xline "<=" n) (ing_rows es xps) in
     "Exposure Analysis Result:" ++ nl ++ subsection eg ("Egress Exposure:" ++ nl)
     ++ subsection ing ((match eg with [] => "" | _ => nl end) ++ "Ingress Exposure:" ++ nl)
     ++ subsection (strsort (flat_map unprotected_lines xps)) (nl ++ "Workloads not protected by network policies:" ++ nl)).
Proof. reflexivity. Qed.
