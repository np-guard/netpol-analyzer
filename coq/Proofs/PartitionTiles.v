(* The model's own IP peers tile 0.0.0.0 - 255.255.255.255: the C05 partition checker accepts the peers of every model
   report (whatever the rules' CIDRs, as long as they are IPv4 ranges). *)
From Coq Require Import List ZArith Bool Lia.
From NP Require Import IntervalSet Build Connlist PartitionProofs.
Import ListNotations.
Open Scope list_scope.
Open Scope Z_scope.

Lemma tiles_of_cuts t : forall a,
  ssorted (a :: t) -> In (maxIP + 1) (a :: t) -> (forall y, In y (a :: t) -> y <= maxIP + 1) ->
  tiles_from a (blocks_of_cuts (a :: t)) = true.
Proof.
  induction t as [|b t' IH]; intros a [Ha Ht] Hin Hmax.
  - destruct Hin as [->|[]]. reflexivity.
  - specialize (Ha b (or_introl eq_refl)). pose proof (Hmax b (or_intror (or_introl eq_refl))) as Hb.
    rewrite blocks_of_cuts_cons2. cbn [tiles_from]. replace (b - 1 + 1) with b by lia.
    rewrite IH, Z.eqb_refl, andb_true_r; [apply Z.leb_le; lia|exact Ht| |intros y Hy; apply Hmax; right; exact Hy].
    destruct Hin as [->|Hin]; [lia|exact Hin].
Qed.

(* the checker sorts the IP peers by lower bound; the blocks of sorted cuts already are *)
Lemma blocks_fsts_sorted cuts : ssorted cuts -> ssorted (map fst (blocks_of_cuts cuts)).
Proof.
  induction cuts as [|a [|b t] IH]; intros Hs; try exact I.
  rewrite blocks_of_cuts_cons2. destruct Hs as [Ha Ht]. split; [|exact (IH Ht)].
  intros y Hy. apply in_map_iff in Hy. destruct Hy as (P & <- & Hin). exact (Ha _ (blocks_fst_in _ P Hin)).
Qed.

Lemma insertion_sort_of_sorted l : ssorted (map fst l) -> fold_right insert_ivl [] l = l.
Proof.
  induction l as [|v t IH]; cbn [fold_right map ssorted]; [reflexivity|]. intros [Hv Ht].
  rewrite (IH Ht). destruct t as [|u t']; cbn [insert_ivl]; [reflexivity|].
  specialize (Hv (fst u) (or_introl eq_refl)). apply Z.ltb_lt in Hv. rewrite Hv. reflexivity.
Qed.

Definition blocks_in_range (blocks : list ivl) : Prop :=
  forall b, In b blocks -> 0 <= fst b <= maxIP + 1 /\ -1 <= snd b <= maxIP.

Lemma cuts_of_bounds blocks y : blocks_in_range blocks -> In y (cuts_of blocks) -> 0 <= y <= maxIP + 1.
Proof.
  intros Hr Hy. apply cuts_of_in in Hy. destruct Hy as [[<-|[<-|[]]]|(b & Hb & Hy)]; [unfold maxIP; lia..|].
  specialize (Hr b Hb). destruct Hy as [-> | ->]; lia.
Qed.

Theorem partition_tiles blocks : blocks_in_range blocks -> tiles_from 0 (fold_right insert_ivl [] (ip_partition blocks)) = true.
Proof.
  intros Hr. change (ip_partition blocks) with (blocks_of_cuts (cuts_of blocks)).
  pose proof (cuts_of_sorted blocks) as Hs. pose proof (fun y => cuts_of_bounds blocks y Hr) as Hbound.
  assert (H0 : In 0 (cuts_of blocks)) by (apply cuts_of_in; cbn [In]; auto).
  assert (HM : In (maxIP + 1) (cuts_of blocks)) by (apply cuts_of_in; cbn [In]; auto).
  rewrite (insertion_sort_of_sorted _ (blocks_fsts_sorted _ Hs)).
  destruct (cuts_of blocks) as [|c l]; [destruct H0|].
  assert (Hc : c = 0).
  { destruct H0 as [H0|H0]; [exact H0|]. apply (proj1 Hs) in H0. specialize (Hbound c (or_introl eq_refl)). lia. }
  subst c. apply (tiles_of_cuts l 0 Hs HM). intros y Hy. apply Hbound, Hy.
Qed.

Lemma ip_peers_of_nonip (rest : list rpeer) : (forall p, In p rest -> rpeer_is_ip p = false) -> ip_peers_of rest = [].
Proof.
  unfold ip_peers_of. induction rest as [|p t IH]; intros Hr; cbn [flat_map]; [reflexivity|].
  rewrite IH by (intros q Hq; apply Hr; right; exact Hq).
  specialize (Hr p (or_introl eq_refl)). destruct p; [reflexivity|discriminate Hr].
Qed.

Lemma ip_peers_of_blocks (bl : list ivl) (rest : list rpeer) :
  (forall p, In p rest -> rpeer_is_ip p = false) ->
  ip_peers_of (map (fun b => RIP (fst b) (snd b)) bl ++ rest) = bl.
Proof.
  intros Hr. induction bl as [|[a b] t IH]; cbn [map app].
  - apply ip_peers_of_nonip. exact Hr.
  - unfold ip_peers_of in *. cbn [flat_map fst snd app]. rewrite IH. reflexivity.
Qed.

Theorem model_peers_partition_ok w blocks :
  blocks_in_range blocks -> ip_partition_okb (map mp_r (mpeers_of w (ip_partition blocks))) = true.
Proof.
  intros Hr. unfold ip_partition_okb, mpeers_of. rewrite map_app, !map_map. cbn [mp_r].
  rewrite (ip_peers_of_blocks (ip_partition blocks)).
  - apply partition_tiles. exact Hr.
  - intros p Hp. apply in_map_iff in Hp. destruct Hp as (e & <- & _). reflexivity.
Qed.
