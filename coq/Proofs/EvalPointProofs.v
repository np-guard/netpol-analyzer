(* The rule walkers of `eval` (Model/EvalPoint.v, mirror of check_eval.go) answer, whenever they answer, what the
   pointwise Spec says, which with EvalProofs.v gives eval = list on every point; and they answer wherever list can
   analyse the pair. *)
From Coq Require Import List ZArith Bool.
From NP Require Import ConnSet World Eval Spec SpecProofs EvalProofs EvalPoint Basics.
Import ListNotations.
Open Scope list_scope.
Open Scope Z_scope.

Lemma np_ports_contain_ok ports dst pr n : forall b,
  np_ports_contain ports dst pr n = Ok b ->
  b = existsb (fun pp => s_np_port_matches pp dst pr n) ports.
Proof.
  induction ports as [|pp t IH]; intros b H; cbn [np_ports_contain existsb] in *.
  - injection H as <-. reflexivity.
  - destruct (pp_port pp) as [|a|nm] eqn:Hport;
      [|bind_inv H as r Hg; bind_inv H as rest Hr; injection H as <-; rewrite (IH rest Hr);
        apply get_ports_range_ok in Hg; [|rewrite Hport; discriminate]; rewrite <- (proj1 Hg); reflexivity ..].
    bind_inv H as rest Hr. injection H as <-. rewrite (IH rest Hr).
    unfold s_np_port_matches. rewrite Hport, andb_true_r. reflexivity.
Qed.

Lemma np_rule_contains_ok ports dst pr n b :
  np_rule_contains ports dst pr n = Ok b -> b = s_np_rule_ports ports dst pr n.
Proof.
  unfold np_rule_contains, s_np_rule_ports. destruct ports; [intros H; injection H as <-; reflexivity|].
  apply np_ports_contain_ok.
Qed.

Lemma np_rules_allow_ok npns rules other dst pr n : forall b,
  np_rules_allow npns rules other dst pr n = Ok b ->
  b = existsb (fun r => s_np_rule npns r other dst pr n) rules.
Proof.
  induction rules as [|r t IH]; intros b H; cbn [np_rules_allow existsb] in *.
  - injection H as <-. reflexivity.
  - unfold s_np_rule at 1. bind_inv H as sel Hs. apply np_rule_selects_ok in Hs. rewrite <- Hs.
    destruct sel; cbn [negb andb] in *; [|apply IH; exact H].
    bind_inv H as c Hc. bind_inv H as rest Hr. injection H as <-.
    rewrite (np_rule_contains_ok _ _ _ _ _ Hc), (IH rest Hr). reflexivity.
Qed.

Lemma np_policy_allows_eq np src dst ingress pr n :
  np_policy_allows np src dst ingress pr n =
  np_rules_allow (np_ns np) (if ingress then np_in np else np_eg np) (if ingress then src else dst) dst pr n.
Proof. destruct ingress; reflexivity. Qed.

Lemma np_policy_allows_ok np src dst ingress pr n b :
  np_policy_allows np src dst ingress pr n = Ok b -> b = s_np_policy_allows np src dst ingress pr n.
Proof. rewrite np_policy_allows_eq. apply np_rules_allow_ok. Qed.

Lemma nps_allow_ok sel src dst ingress pr n : forall b,
  nps_allow sel src dst ingress pr n = Ok b ->
  b = existsb (fun np => s_np_policy_allows np src dst ingress pr n) sel.
Proof.
  induction sel as [|np t IH]; intros b H; cbn [nps_allow existsb] in *.
  - injection H as <-. reflexivity.
  - bind_inv H as a Ha. bind_inv H as rest Hr. injection H as <-.
    rewrite (np_policy_allows_ok _ _ _ _ _ _ _ Ha), (IH rest Hr). reflexivity.
Qed.

Lemma np_layer_point_ok w src dst ingress pr n r :
  np_layer_point w src dst ingress pr n = Ok r -> r = s_np_layer w src dst ingress pr n.
Proof.
  unfold np_layer_point, s_np_layer. intros H.
  destruct (if ingress then dst else src) as [p nsl|bl]; [|injection H as <-; reflexivity].
  bind_inv H as sel Hs. apply selecting_nps_ok in Hs. rewrite <- Hs.
  destruct sel as [|np t]; [injection H as <-; reflexivity|].
  bind_inv H as a Ha. injection H as <-. rewrite (nps_allow_ok _ _ _ _ _ _ _ Ha). reflexivity.
Qed.

Lemma rule_port_contains_single p pr m n :
  rule_port_contains p pr (Some (m, m)) n = proto_eqb p pr && (m =? n).
Proof. unfold rule_port_contains. rewrite leb_antisym_eqb. reflexivity. Qed.

Lemma admin_ports_contain_ok ports dst pr n : forall b,
  admin_ports_contain ports dst pr n = Ok b ->
  b = existsb (fun ap => s_admin_port_matches ap dst pr n) ports.
Proof.
  induction ports as [|ap t IH]; intros b H; cbn [admin_ports_contain existsb] in *.
  - injection H as <-. reflexivity.
  - destruct ap as [p a|p lo hi|nm|]; cbn [s_admin_port_matches]; [| | |discriminate H].
    + rewrite rule_port_contains_single in H.
      destruct (proto_eqb p pr && (a =? n)); [injection H as <-; reflexivity | apply IH; exact H].
    + unfold rule_port_contains in H. rewrite andb_assoc in H.
      destruct (proto_eqb p pr && (lo <=? n) && (n <=? hi)); [injection H as <-; reflexivity | apply IH; exact H].
    + destruct dst as [d nsl|bl]; [|apply IH; exact H].
      destruct (pod_named_port (p_ports d) nm) as [[q m]|]; [|apply IH; exact H].
      rewrite rule_port_contains_single in H.
      destruct (proto_eqb q pr && (m =? n)); [injection H as <-; reflexivity | apply IH; exact H].
Qed.

(* `ANPRulesResult` of `determineConnResByAction` as a Spec verdict *)
Definition verdict_of_res (r : rule_res) : verdict :=
  match r with RNotCaptured => VNone | RPass => VPass | RAllow => VAllow | RDeny => VDeny end.

Lemma admin_rules_check_ok rules other dst is_banp pr n : forall r,
  admin_rules_check rules other dst is_banp pr n = Ok r ->
  s_rules_verdict rules other dst pr n = verdict_of_res r /\ (is_banp = true -> r <> RPass).
Proof.
  induction rules as [|ru t IH]; intros r H; cbn [admin_rules_check] in H.
  - injection H as <-. split; [reflexivity | discriminate].
  - cbn [s_rules_verdict]. unfold s_admin_rule_matches.
    destruct (ar_peers ru) as [|ap0 aps] eqn:Hp; [discriminate|]. rewrite <- Hp in *.
    bind_inv H as sel Hs. apply admin_peers_select_ok in Hs. rewrite <- Hs.
    destruct sel; cbn [negb andb] in *; [|apply IH; exact H].
    bind_inv H as c Hc.
    assert (Hc' : c = match ar_ports ru with None => true | Some l => existsb (fun ap => s_admin_port_matches ap dst pr n) l end).
    { unfold admin_rule_contains in Hc.
      destruct (ar_ports ru); [apply admin_ports_contain_ok; exact Hc | injection Hc as <-; reflexivity]. }
    rewrite <- Hc'. destruct c; cbn [negb] in H; [|apply IH; exact H].
    unfold res_of_action in H.
    destruct (ar_action ru); [| |destruct is_banp; [discriminate H|]|discriminate H]; injection H as <-;
      (split; [reflexivity | discriminate]).
Qed.

Lemma anps_check_ok anps src dst ingress pr n : forall r,
  anps_check anps src dst ingress pr n = Ok r ->
  match s_anps_verdict anps src dst ingress pr n with
  | VAllow => r = Some true
  | VDeny => r = Some false
  | VPass | VNone => r = None
  end.
Proof.
  induction anps as [|a t IH]; intros r H; cbn [anps_check] in H.
  - injection H as <-. reflexivity.
  - rewrite s_anps_verdict_cons. unfold s_admin_verdict.
    bind_inv H as sel Hs. apply admin_selects_ok in Hs. rewrite <- Hs.
    destruct sel; cbn [negb] in H; [|apply IH; exact H].
    bind_inv H as rr Hr. apply admin_rules_check_ok in Hr. destruct Hr as [-> _].
    destruct rr; cbn [verdict_of_res]; [apply IH; exact H | injection H as <-; reflexivity..].
Qed.

Lemma banp_check_ok w src dst ingress pr n b :
  banp_check w src dst ingress pr n = Ok b -> b = s_banp_allows w src dst ingress pr n.
Proof.
  unfold banp_check, s_banp_allows. destruct (w_banp w) as [bp|]; intros H; [|injection H as <-; reflexivity].
  bind_inv H as sel Hs. apply admin_selects_ok in Hs. rewrite <- Hs.
  destruct sel; cbn [negb] in H; [|injection H as <-; reflexivity].
  bind_inv H as rr Hr. apply admin_rules_check_ok in Hr. destruct Hr as [-> _].
  destruct rr; [injection H as <-; reflexivity | discriminate H | injection H as <-; reflexivity..].
Qed.

Theorem xgress_allowed_ok w src dst ingress pr n b :
  xgress_allowed w src dst ingress pr n = Ok b -> b = s_dir_allows w src dst ingress pr n.
Proof.
  unfold xgress_allowed, s_dir_allows. intros H.
  bind_inv H as a Ha. apply anps_check_ok in Ha.
  destruct (s_anps_verdict (w_anps w) src dst ingress pr n); subst a; try (injection H as <-; reflexivity);
    (bind_inv H as np Hn; apply np_layer_point_ok in Hn; rewrite <- Hn;
     destruct np; [injection H as <-; reflexivity | apply banp_check_ok; exact H]).
Qed.

Theorem check_allowed_ok w src dst pr n b :
  check_allowed w src dst pr n = Ok b -> b = (pod_to_itself src dst || s_allows w src dst pr n).
Proof.
  unfold check_allowed, s_allows. destruct (pod_to_itself src dst); intros H; [injection H as <-; reflexivity|].
  bind_inv H as eg He. apply xgress_allowed_ok in He. cbn [orb]. rewrite <- He.
  destruct eg; cbn [negb andb] in *; [apply xgress_allowed_ok; exact H | injection H as <-; reflexivity].
Qed.

Theorem self_allowed w src dst pr n :
  pod_to_itself src dst = true -> check_allowed w src dst pr n = Ok true.
Proof. unfold check_allowed. intros ->. reflexivity. Qed.

(* Each rule walker of check_eval.go evaluates a subset of what the corresponding step of the connection-set
   computation evaluates, so it answers whenever that step does: this, and not that the walker always answers, is
   what the [_total] lemmas state. *)
Lemma np_ports_total ports dst pr n : forall res c,
  np_ports_conns ports dst res = Ok c -> is_ok (np_ports_contain ports dst pr n) = true.
Proof.
  induction ports as [|pp t IH]; intros res c H; cbn [np_ports_conns np_ports_contain] in *; [reflexivity|].
  bind_inv H as ps Hps. apply IH in H.
  destruct (pp_port pp); [|bind_inv Hps as r Hr; rewrite Hr; cbn [bind] ..];
    (destruct (np_ports_contain t dst pr n); [reflexivity | discriminate H]).
Qed.

Lemma np_rule_total ports dst pr n c :
  np_rule_conns ports dst = Ok c -> is_ok (np_rule_contains ports dst pr n) = true.
Proof.
  unfold np_rule_conns, np_rule_contains. destruct ports as [|pp t]; [reflexivity|]. apply np_ports_total.
Qed.

Lemma np_rules_total npns rules other dst pr n : forall res c,
  np_rules_conns npns rules other dst res = Ok c -> is_ok (np_rules_allow npns rules other dst pr n) = true.
Proof.
  induction rules as [|r t IH]; intros res c H; cbn [np_rules_conns np_rules_allow] in *; [reflexivity|].
  bind_inv H as sel Hsel. rewrite Hsel. cbn [bind]. destruct sel; cbn [negb] in *; [|exact (IH _ _ H)].
  bind_inv H as rc Hrc. apply (np_rule_total _ _ pr n) in Hrc. apply IH in H.
  destruct (np_rule_contains (nr_ports r) dst pr n); [cbn [bind] | discriminate Hrc].
  destruct (np_rules_allow npns t other dst pr n); [reflexivity | discriminate H].
Qed.

Lemma nps_total sel src dst ingress pr n : forall acc c,
  nps_union_conns sel src dst ingress acc = Ok c -> is_ok (nps_allow sel src dst ingress pr n) = true.
Proof.
  induction sel as [|np t IH]; intros acc c H; cbn [nps_union_conns nps_allow] in *; [reflexivity|].
  bind_inv H as pc Hpc. rewrite np_dir_conns_eq in Hpc. apply (np_rules_total _ _ _ _ pr n) in Hpc.
  rewrite <- np_policy_allows_eq in Hpc. apply IH in H.
  destruct (np_policy_allows np src dst ingress pr n); [cbn [bind] | discriminate Hpc].
  destruct (nps_allow t src dst ingress pr n); [reflexivity | discriminate H].
Qed.

Lemma np_layer_total w src dst ingress pr n r :
  np_layer w src dst ingress = Ok r -> is_ok (np_layer_point w src dst ingress pr n) = true.
Proof.
  unfold np_layer, np_layer_point. intros H. destruct (if ingress then dst else src) as [p nsl|b]; [|reflexivity].
  bind_inv H as sel Hsel. rewrite Hsel. cbn [bind]. destruct sel as [|np t]; [reflexivity|].
  bind_inv H as c Hc. apply (nps_total _ _ _ _ pr n) in Hc.
  destruct (nps_allow (np :: t) src dst ingress pr n); [reflexivity | discriminate Hc].
Qed.

Lemma admin_ports_total ports dst pr n : forall res c,
  admin_ports_conns ports dst res = Ok c -> is_ok (admin_ports_contain ports dst pr n) = true.
Proof.
  induction ports as [|ap t IH]; intros res c H; cbn [admin_ports_conns admin_ports_contain] in *; [reflexivity|].
  destruct ap as [p a|p lo hi|nm|]; [| | |discriminate H].
  - destruct (rule_port_contains p pr (Some (a, a)) n); [reflexivity | exact (IH _ _ H)].
  - destruct (rule_port_contains p pr (Some (lo, hi)) n); [reflexivity | exact (IH _ _ H)].
  - destruct dst as [d nsl|b]; [|exact (IH _ _ H)].
    destruct (pod_named_port (p_ports d) nm) as [[q m]|]; [|exact (IH _ _ H)].
    destruct (rule_port_contains q pr (Some (m, m)) n); [reflexivity | exact (IH _ _ H)].
Qed.

Lemma admin_rule_total ports dst pr n c :
  admin_rule_conns ports dst = Ok c -> is_ok (admin_rule_contains ports dst pr n) = true.
Proof.
  unfold admin_rule_conns, admin_rule_contains. destruct ports as [l|]; [apply admin_ports_total | reflexivity].
Qed.

Lemma admin_rules_total rules other dst is_banp pr n : forall pc pc',
  admin_rules_conns rules other dst is_banp pc = Ok pc' ->
  is_ok (admin_rules_check rules other dst is_banp pr n) = true.
Proof.
  induction rules as [|r t IH]; intros pc pc' H; cbn [admin_rules_conns admin_rules_check] in *; [reflexivity|].
  destruct (ar_peers r) as [|p0 pt]; [discriminate H|].
  bind_inv H as sel Hsel. rewrite Hsel. cbn [bind]. destruct sel; cbn [negb] in *; [|exact (IH _ _ H)].
  bind_inv H as rc Hrc. bind_inv H as pc1 Hup. apply (admin_rule_total _ _ pr n) in Hrc.
  destruct (admin_rule_contains (ar_ports r) dst pr n) as [b|]; [cbn [bind] | discriminate Hrc].
  destruct b; cbn [negb]; [|exact (IH _ _ H)].
  (* the action that UpdateWithRuleConns accepted is one that determineConnResByAction accepts *)
  unfold pc_update in Hup. unfold res_of_action.
  destruct (ar_action r); [reflexivity | reflexivity | destruct is_banp; [discriminate Hup | reflexivity] | discriminate Hup].
Qed.

Lemma anps_total anps src dst ingress pr n : forall pc pc',
  anps_conns anps src dst ingress pc = Ok pc' -> is_ok (anps_check anps src dst ingress pr n) = true.
Proof.
  induction anps as [|a t IH]; intros pc pc' H; cbn [anps_conns anps_check] in *; [reflexivity|].
  bind_inv H as sel Hsel. rewrite Hsel. cbn [bind]. bind_inv H as single Hs.
  destruct sel; cbn [negb]; [|exact (IH _ _ H)].
  apply (admin_rules_total _ _ _ _ pr n) in Hs.
  destruct (admin_rules_check _ _ _ _ _ _) as [rr|]; [cbn [bind] | discriminate Hs].
  destruct rr; [exact (IH _ _ H) | reflexivity..].
Qed.

Lemma default_total w src dst ingress pr n dflt :
  default_conns w src dst ingress = Ok dflt -> is_ok (banp_check w src dst ingress pr n) = true.
Proof.
  unfold default_conns, banp_check. intros H. destruct (w_banp w) as [b|]; [|reflexivity].
  bind_inv H as sel Hsel. rewrite Hsel. cbn [bind]. bind_inv H as res Hres.
  destruct sel; cbn [negb]; [|reflexivity].
  apply (admin_rules_total _ _ _ _ pr n) in Hres.
  destruct (admin_rules_check _ _ _ _ _ _) as [rr|] eqn:Hr; [cbn [bind] | discriminate Hres].
  destruct rr; try reflexivity.
  (* Pass does not come out of a BANP walk *)
  destruct (proj2 (admin_rules_check_ok _ _ _ _ _ _ _ Hr) eq_refl eq_refl).
Qed.

Theorem xgress_total w src dst ingress c pr n :
  peer_okb dst = true -> world_okb w = true -> valid_port n = true ->
  xgress_conns w src dst ingress = Ok c -> is_ok (xgress_allowed w src dst ingress pr n) = true.
Proof.
  intros Hd Hw Hv H. destruct (world_ok_parts w Hw) as (Hnps & Hanps & Hbanp).
  unfold xgress_conns in H. unfold xgress_allowed. bind_inv H as anpc Hanp.
  destruct (is_ok_ex _ (anps_total _ _ _ _ pr n _ _ Hanp)) as [a Ha]. rewrite Ha. cbn [bind].
  destruct a as [b|]; [reflexivity|]. apply anps_check_ok in Ha.
  apply (anps_conns_is _ _ _ _ _ _ _ Hd Hanps pc_new_is) in Hanp. cbn [vcomp] in Hanp.
  destruct (negb (pc_isempty anpc) && pc_determines_all anpc) eqn:Eshort.
  - (* the ANPs decide every point: the walk cannot have come back undecided *)
    exfalso. apply andb_true_iff in Eshort. destruct Eshort as [_ Hall].
    pose proof (pc_determines_all_is pr n Hanp Hall Hv) as Hu.
    destruct (s_anps_verdict (w_anps w) src dst ingress pr n); discriminate.
  - bind_inv H as npc Hnp.
    destruct (is_ok_ex _ (np_layer_total w src dst ingress pr n npc Hnp)) as [np' Hnp']. rewrite Hnp'. cbn [bind].
    destruct np' as [b|]; [reflexivity|]. apply np_layer_point_ok in Hnp'.
    apply (np_layer_ok _ _ _ _ _ Hd Hnps) in Hnp. destruct npc as [npa|].
    + exfalso. destruct (proj2 Hnp pr n) as (b0 & Hb0 & _). rewrite Hb0 in Hnp'. discriminate Hnp'.
    + bind_inv H as dflt Edf. exact (default_total w src dst ingress pr n dflt Edf).
Qed.

(* C03 *)
Theorem check_allowed_is_list w src dst c pr n :
  peer_okb dst = true -> world_okb w = true -> valid_port n = true ->
  all_conns w src dst = Ok c -> check_allowed w src dst pr n = Ok (cs_denote c pr n).
Proof.
  intros Hd Hw Hv H. destruct (all_conns_ok _ _ _ _ Hd Hw H) as [_ Hden]. rewrite Hden, Hv. cbn [andb].
  unfold all_conns in H. unfold check_allowed, s_allows.
  destruct (pod_to_itself src dst); [reflexivity|]. cbn [orb].
  bind_inv H as eg Eeg.
  destruct (is_ok_ex _ (xgress_total w src dst false eg pr n Hd Hw Hv Eeg)) as [b Hb]. rewrite Hb. cbn [bind].
  apply xgress_allowed_ok in Hb. rewrite <- Hb.
  destruct b; cbn [negb andb]; [|reflexivity].
  apply (xgress_conns_ok _ _ _ _ _ Hd Hw) in Eeg.
  destruct (cs_isempty eg) eqn:Eemp.
  - rewrite (cs_has_empty pr n Eeg Eemp Hv) in Hb. discriminate Hb.
  - bind_inv H as ing Eing.
    destruct (is_ok_ex _ (xgress_total w src dst true ing pr n Hd Hw Hv Eing)) as [b Hb']. rewrite Hb'.
    apply xgress_allowed_ok in Hb'. rewrite Hb'. reflexivity.
Qed.

Theorem eval_eq_list w src dst pr n b c :
  peer_okb dst = true -> world_okb w = true -> valid_port n = true ->
  check_allowed w src dst pr n = Ok b -> all_conns w src dst = Ok c ->
  b = cs_denote c pr n.
Proof.
  intros Hd Hw Hv Hb Hc. rewrite (check_allowed_is_list _ _ _ _ pr n Hd Hw Hv Hc) in Hb. injection Hb as <-. reflexivity.
Qed.
