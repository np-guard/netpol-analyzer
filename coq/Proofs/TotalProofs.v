(* No optional field read by the modelled sites can make the analysis panic, for every combination of present / absent
   fields (C12, structured part). *)
From Coq Require Import List String.
From NP Require Import Total.
Import ListNotations.

Lemma pod_owner_total refs : no_panic (pod_owner refs) = true.
Proof. induction refs as [|r t IH]; cbn [pod_owner]; [reflexivity|]. destruct (or_controller r) as [[|]|]; [reflexivity | exact IH | exact IH]. Qed.

Lemma rc_template_total {T} (t : option T) : no_panic (rc_template t) = true.
Proof. destruct t; reflexivity. Qed.

Lemma rule_services_total r : no_panic (rule_services r) = true.
Proof. unfold rule_services. destruct (ir_http r); reflexivity. Qed.

Lemma ingress_services_total db rules : no_panic (ingress_services db rules) = true.
Proof.
  induction rules as [|r t IH]; cbn [ingress_services]; [reflexivity|].
  pose proof (rule_services_total r) as Hr.
  destruct (rule_services r), (ingress_services db t); cbn in *; try reflexivity; discriminate.
Qed.

(* C12: reading a structured input can only panic in the node-IP shortcut on status.hostIP *)
Theorem read_input_hostip i : read_input i = no_panic (node_ip_check (si_hostip i)).
Proof. unfold read_input. rewrite pod_owner_total, rc_template_total, ingress_services_total. reflexivity. Qed.

Theorem analysis_total_partial i :
  (si_hostip i = HAbsent \/ exists a, si_hostip i = HIPv4 a) -> read_input i = true.
Proof. intros H. rewrite read_input_hostip. destruct H as [-> | [a ->]]; reflexivity. Qed.

(* the full statement is false of the code as it is: the finding *)
Theorem analysis_total_refuted : exists i, read_input i = false.
Proof. exists (mkSI [] None None None [] None HIPv6). reflexivity. Qed.

(* the repaired defects: what the Go code did before the fix *)
Example pod_owner_unguarded_panics :
  no_panic (pod_owner_unguarded [mkORef "ReplicaSet" "rs" None]) = false /\
  no_panic (pod_owner [mkORef "ReplicaSet" "rs" None]) = true.
Proof. split; reflexivity. Qed.
Example rc_template_unguarded_panics : no_panic (@rc_template_unguarded unit None) = false /\ no_panic (@rc_template unit None) = true.
Proof. split; reflexivity. Qed.
Example rule_services_unguarded_panics :
  no_panic (rule_services_unguarded (mkIRule None)) = false /\ no_panic (rule_services (mkIRule None)) = true.
Proof. split; reflexivity. Qed.
