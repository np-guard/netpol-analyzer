(* The boolean well-formedness checker of reports (run on the implementation's own output) decides the property it is
   named after, and the model's own reports satisfy the per-entry part of it. *)
From Coq Require Import List ZArith Bool String Lia.
From NP Require Import IntervalSet ConnSet ConnSetProofs World EvalProofs Build Connlist ListProofs.
Import ListNotations.
Open Scope list_scope.
Open Scope Z_scope.

Lemma cs_canonb_spec c : cs_canonb c = true <-> cs_ninv c.
Proof.
  rewrite <- cs_ninvb_spec. unfold cs_canonb, cs_ninvb.
  assert (E : forall p, match cs_get c p with
                        | None => true
                        | Some ps => r_ps_wfb ps && negb (iempty (ps_ports ps)) && negb (cs_all c)
                                     && match ps_named ps, ps_excl ps with [], [] => true | _, _ => false end
                        end =
                        match cs_get c p with
                        | None => true
                        | Some ps => ps_wfb ps && ps_numericb ps && negb (iempty (ps_ports ps)) && negb (cs_all c)
                        end).
  { intros p. destruct (cs_get c p) as [ps|]; [|reflexivity].
    unfold r_ps_wfb, ps_wfb, ps_numericb.
    destruct (canonb (ps_ports ps) && withinb minPort maxPort (ps_ports ps)), (negb (iempty (ps_ports ps))), (negb (cs_all c)),
      (ps_named ps), (ps_excl ps); reflexivity. }
  unfold all_protos. cbn [forallb]. rewrite !E. reflexivity.
Qed.

Definition WF_entry (peers : list rpeer) (e : rentry) : Prop :=
  re_src e <> re_dst e /\
  ~ (rpeer_is_ip (re_src e) = true /\ rpeer_is_ip (re_dst e) = true) /\
  cs_isempty (re_conn e) = false /\
  cs_ninv (re_conn e) /\
  In (re_src e) peers /\ In (re_dst e) peers.

Lemma existsb_rpeer p l : existsb (rpeer_eqb p) l = true <-> In p l.
Proof.
  rewrite existsb_exists. split.
  - intros (x & Hin & He). apply rpeer_eqb_spec in He. subst; exact Hin.
  - intros H. exists p. split; [exact H | apply rpeer_eqb_spec; reflexivity].
Qed.

Lemma entry_okb_spec peers e : entry_okb peers e = true <-> WF_entry peers e.
Proof.
  unfold entry_okb, WF_entry. split.
  - intros H.
    apply andb_true_iff in H. destruct H as [H H6]. apply andb_true_iff in H. destruct H as [H H5].
    apply andb_true_iff in H. destruct H as [H H4]. apply andb_true_iff in H. destruct H as [H H3].
    apply andb_true_iff in H. destruct H as [H1 H2]. apply negb_true_iff in H1, H2, H3.
    split; [intros E; apply rpeer_eqb_spec in E; congruence|].
    split; [intros [Ha Hb]; rewrite Ha, Hb in H2; discriminate H2|].
    split; [exact H3|]. split; [apply cs_canonb_spec, H4|]. split; apply existsb_rpeer; assumption.
  - intros (H1 & H2 & H3 & H4 & H5 & H6).
    rewrite (proj2 (cs_canonb_spec _) H4), (proj2 (existsb_rpeer _ _) H5), (proj2 (existsb_rpeer _ _) H6), H3.
    destruct (rpeer_eqb (re_src e) (re_dst e)) eqn:E; [apply rpeer_eqb_spec in E; contradiction|].
    destruct (rpeer_is_ip (re_src e)), (rpeer_is_ip (re_dst e)); try reflexivity. exfalso. apply H2. auto.
Qed.

Lemma nodup_keys_spec es :
  nodup_keys es = true <-> NoDup (map (fun e => (re_src e, re_dst e)) es).
Proof.
  induction es as [|e t IH]; cbn [nodup_keys map]; [split; [constructor | reflexivity]|].
  rewrite andb_true_iff, negb_true_iff, IH. split.
  - intros [Hn Ht]. constructor; [|exact Ht]. intros Hin. apply in_map_iff in Hin.
    destruct Hin as (f & Hf & Hin). rewrite <- not_true_iff_false, existsb_exists in Hn. apply Hn.
    exists f. split; [exact Hin|]. injection Hf as -> ->. rewrite !(proj2 (rpeer_eqb_spec _ _)) by reflexivity. reflexivity.
  - intros Hnd. apply NoDup_cons_iff in Hnd. destruct Hnd as [Hnin Hnd']. split; [|exact Hnd'].
    rewrite <- not_true_iff_false, existsb_exists. intros (f & Hin & He). apply Hnin.
    apply andb_true_iff in He. destruct He as [H1 H2]. apply rpeer_eqb_spec in H1, H2.
    apply in_map_iff. exists f. split; [congruence | exact Hin].
Qed.

Lemma tiles_from_cover l : forall lo a,
  tiles_from lo l = true -> lo <= a <= maxIP ->
  exists v, In v l /\ fst v <= a <= snd v.
Proof.
  induction l as [|[x y] t IH]; intros lo a H Ha; cbn [tiles_from] in H.
  - lia.
  - apply andb_true_iff in H. destruct H as [H Ht]. apply andb_true_iff in H. destruct H as [Hx Hxy].
    destruct (Z_le_gt_dec a y).
    + exists (x, y). split; [left; reflexivity | cbn; lia].
    + destruct (IH (y + 1) a Ht) as (v & Hin & Hv); [lia|]. exists v. split; [right; exact Hin | exact Hv].
Qed.

Lemma tiles_from_disjoint l : forall lo,
  tiles_from lo l = true ->
  (forall v, In v l -> lo <= fst v /\ fst v <= snd v /\ snd v <= maxIP) /\
  (forall l1 u l2 v l3, l = l1 ++ u :: l2 ++ v :: l3 -> snd u < fst v).
Proof.
  induction l as [|[x y] t IH]; intros lo H; cbn [tiles_from] in H.
  - split; [intros ? [] | intros l1 u l2 v l3 E; destruct l1; discriminate].
  - apply andb_true_iff in H. destruct H as [H Ht]. apply andb_true_iff in H. destruct H as [Hx Hxy].
    destruct (IH _ Ht) as [Hb Hd]. split.
    + intros v [<- | Hv]; cbn [fst snd].
      * assert (y <= maxIP).
        { destruct t as [|[x' y'] t']; cbn [tiles_from] in Ht; [lia|].
          destruct (Hb (x', y') (or_introl eq_refl)) as (? & ? & ?). cbn in *. lia. }
        lia.
      * destruct (Hb v Hv) as (? & ? & ?). lia.
    + intros l1 u l2 v l3 E. destruct l1 as [|w l1]; cbn [app] in E; injection E as <- ->.
      * assert (Hv : In v (l2 ++ v :: l3)) by (apply in_or_app; right; left; reflexivity).
        destruct (Hb v Hv) as (? & ? & ?). cbn [snd]. lia.
      * eapply Hd. reflexivity.
Qed.

Lemma in_insert_ivl v u l : In v (insert_ivl u l) -> In v (u :: l).
Proof.
  induction l as [|w t IH]; cbn [insert_ivl]; [exact (fun H => H)|].
  destruct (fst u <? fst w); [exact (fun H => H)|].
  intros [H|H]; [right; left; exact H|]. destruct (IH H) as [E|Hin]; [left; exact E | right; right; exact Hin].
Qed.
Lemma in_sort_ivl v l : In v (fold_right insert_ivl [] l) -> In v l.
Proof.
  induction l as [|u t IH]; cbn [fold_right]; [exact (fun H => H)|].
  intros H. destruct (in_insert_ivl _ _ _ H) as [E|Hin]; [left; exact E | right; exact (IH Hin)].
Qed.

Theorem ip_partition_okb_covers ps a :
  ip_partition_okb ps = true -> 0 <= a <= maxIP ->
  exists lo hi, In (RIP lo hi) ps /\ lo <= a <= hi.
Proof.
  unfold ip_partition_okb. intros H Ha.
  destruct (tiles_from_cover _ 0 a H Ha) as ([lo hi] & Hin & Hv).
  apply in_sort_ivl in Hin. unfold ip_peers_of in Hin. apply in_flat_map in Hin.
  destruct Hin as (p & Hp & Hin). destruct p as [s|x y]; [contradiction|].
  destruct Hin as [E|[]]. injection E as -> ->. exists lo, hi. split; [exact Hp | exact Hv].
Qed.

Lemma include_pair_true focus s d :
  include_pair focus s d = true ->
  ~ (rpeer_is_ip (mp_r s) = true /\ rpeer_is_ip (mp_r d) = true) /\ mp_r s <> mp_r d /\
  mp_focus focus s || mp_focus focus d = true.
Proof.
  unfold include_pair. intros H. apply andb_true_iff in H. destruct H as [H Hfoc].
  apply andb_true_iff in H. destruct H as [Hip Hneq]. apply negb_true_iff in Hip, Hneq.
  split; [intros [A B]; rewrite A, B in Hip; discriminate Hip|]. split; [|exact Hfoc].
  intros E. rewrite (proj2 (rpeer_eqb_spec _ _) E) in Hneq. discriminate Hneq.
Qed.

Theorem list_world_WF_entry w focus ingr r :
  list_world w focus ingr = Ok r -> world_okb w = true -> forallb pod_okb (w_pods w) = true ->
  forall e, In e (lr_entries r) -> WF_entry (lr_peers r) e.
Proof.
  intros H Hw Hpods e He.
  destruct (list_world_entries_sound _ _ _ _ H e He) as (s & d & sp & dp & Hs & Hd & Hinc & Es & Ed & Hsp & Hdp & Hc & Hne).
  destruct (include_pair_true _ _ _ Hinc) as (Hip & Hneq & _).
  assert (Hpeers : lr_peers r = map mp_r (mpeers_of w (ip_partition_of w)))
    by (destruct (list_world_inv _ _ _ _ H) as [[_ ->] | [[_ ->] | ->]]; [contradiction He..|reflexivity]).
  unfold WF_entry. rewrite Es, Ed, Hpeers.
  split; [exact Hneq|]. split; [exact Hip|]. split; [exact Hne|].
  split; [exact (proj1 (all_conns_ok _ _ _ _ (eval_peer_okb _ _ _ _ Hpods Hd Hdp) Hw Hc))|].
  split; apply in_map; assumption.
Qed.

Theorem list_world_entries_wf w focus hi r :
  list_world w focus hi = Ok r -> world_okb w = true -> forallb pod_okb (w_pods w) = true ->
  forall e, In e (lr_entries r) ->
    re_src e <> re_dst e /\
    ~ (rpeer_is_ip (re_src e) = true /\ rpeer_is_ip (re_dst e) = true) /\
    cs_isempty (re_conn e) = false /\ cs_ninv (re_conn e).
Proof.
  intros H Hw Hpods e He. destruct (list_world_WF_entry _ _ _ _ H Hw Hpods e He) as (H1 & H2 & H3 & H4 & _). auto.
Qed.
