(* The md output of `diff` determines the diff (its added / removed / changed entries, as a multiset);
   [diff_text_determine] serves the txt output as well. *)
From Coq Require Import List ZArith Bool String Ascii Lia Permutation.
From NP Require Import ConnSet ConnSetProofs Connlist Diff Format FormatProofs Basics ListProofs StrInj ConnInj RowInj.
Import ListNotations.
Open Scope string_scope.

Definition nobar (ch : ascii) : bool := negb (Ascii.eqb ch "|").

Definition dpeer_ok (p : rpeer) : Prop := peer_ok p /\ all_chars nobar (rpeer_str p) = true.

Definition dentry_ok (e : dentry) : Prop :=
  dpeer_ok (de_src e) /\ dpeer_ok (de_dst e) /\ de_src e <> de_dst e /\ cs_ninv (de_c1 e) /\ cs_ninv (de_c2 e) /\
  (de_type e = DAdded -> de_c1 e = cs_make false) /\ (de_type e = DRemoved -> de_c2 e = cs_make false).

Lemma dtype_str_inj a b : dtype_str a = dtype_str b -> a = b.
Proof. destruct a, b; cbn; intros H; try reflexivity; discriminate. Qed.

Lemma dtype_str_plain t : all_chars plain (dtype_str t) = true.
Proof. destruct t; reflexivity. Qed.

Lemma dtype_str_nobar t : all_chars nobar (dtype_str t) = true.
Proof. destruct t; reflexivity. Qed.

Lemma length_lt_neq (a b : string) : (String.length a < String.length b)%nat -> a <> b.
Proof. intros H E. subst. lia. Qed.

(* the workloads-diff-info column: which of the two ends are new (or lost) workloads *)
Definition info_text (S D T : string) (a b : bool) : string :=
  if a || b then "workload " ++ (if a then S else "") ++ (if a && b then " and " else "") ++ (if b then D else "") ++ " " ++ T else "".
Lemma diff_info_text e :
  diff_info e = info_text (rpeer_str (de_src e)) (rpeer_str (de_dst e)) (dtype_str (de_type e)) (de_src_flag e) (de_dst_flag e).
Proof. reflexivity. Qed.

(* after "workload " comes a name, a blank, and then either the diff type or "and" with the other name *)
Lemma info_text_flags S D T a b a' b' :
  all_chars plain S = true -> all_chars plain D = true -> all_chars plain T = true -> S <> D ->
  info_text S D T a b = info_text S D T a' b' -> a = a' /\ b = b'.
Proof.
  intros HS HD HT Hne H.
  assert (K : forall x y, info_text S D T x y =
            if x || y then "workload " ++ (if x then S else D) ++ " " ++ (if x && y then "and " ++ D ++ " " ++ T else T) else "")
    by (intros [] []; reflexivity).
  rewrite !K in H. destruct (a || b) eqn:O, (a' || b') eqn:O'; [|discriminate H|discriminate H|].
  - apply append_inj_l in H.
    assert (F : forall x : bool, chars plain (if x then S else D)) by (intros []; assumption).
    destruct (delimits plain " " eq_refl _ _ _ _ (F a) (F a') H) as [E1 E2]. clear H.
    assert (Ea : a = a') by (destruct a, a'; [reflexivity|destruct (Hne E1)|destruct (Hne (eq_sym E1))|reflexivity]). subst a'.
    assert (Eab : a && b = a && b').
    { destruct (a && b), (a && b'); try reflexivity; exfalso; [symmetry in E2|];
        exact (no_sep_inside plain " " T "and" _ eq_refl HT E2). }
    split; [reflexivity|]. destruct a; [exact Eab|]. cbn [orb] in O, O'. congruence.
  - apply orb_false_elim in O. apply orb_false_elim in O'. destruct O, O'. split; congruence.
Qed.

(* the absent side of an added / removed entry is stored as the empty set, and printed as such *)
Lemma drow_conns e : dentry_ok e ->
  dr_c1 (drow_of e) = cs_string (de_c1 e) /\ dr_c2 (drow_of e) = cs_string (de_c2 e).
Proof.
  intros (_ & _ & _ & _ & _ & A & R). unfold drow_of. cbn [dr_c1 dr_c2].
  destruct (de_type e); rewrite ?(A eq_refl), ?(R eq_refl); split; reflexivity.
Qed.

Theorem drow_of_inj e e' : dentry_ok e -> dentry_ok e' -> drow_of e = drow_of e' -> e = e'.
Proof.
  intros He He' H. pose proof He as (S1 & D1 & N1 & C1 & C1' & _). pose proof He' as (S2 & D2 & _ & C2 & C2' & _).
  assert (Ht : de_type e = de_type e') by exact (dtype_str_inj _ _ (f_equal dr_type H)).
  assert (Hs : de_src e = de_src e') by exact (rpeer_str_inj _ _ (proj1 S1) (proj1 S2) (f_equal dr_src H)).
  assert (Hd : de_dst e = de_dst e') by exact (rpeer_str_inj _ _ (proj1 D1) (proj1 D2) (f_equal dr_dst H)).
  destruct (drow_conns e He) as [K1 K2], (drow_conns e' He') as [K1' K2'].
  assert (Hc1 : de_c1 e = de_c1 e').
  { apply cs_string_inj; [exact C1|exact C2|]. rewrite <- K1, <- K1', H. reflexivity. }
  assert (Hc2 : de_c2 e = de_c2 e').
  { apply cs_string_inj; [exact C1'|exact C2'|]. rewrite <- K2, <- K2', H. reflexivity. }
  assert (Hf : de_src_flag e = de_src_flag e' /\ de_dst_flag e = de_dst_flag e').
  { apply (info_text_flags (rpeer_str (de_src e)) (rpeer_str (de_dst e)) (dtype_str (de_type e))).
    - exact (rpeer_str_plain _ (proj1 S1)).
    - exact (rpeer_str_plain _ (proj1 D1)).
    - apply dtype_str_plain.
    - intros E. apply N1. exact (rpeer_str_inj _ _ (proj1 S1) (proj1 D1) E).
    - rewrite <- !diff_info_text, Hs, Hd, Ht. exact (f_equal dr_info H). }
  destruct Hf as [Hf1 Hf2]. clear - Ht Hs Hd Hc1 Hc2 Hf1 Hf2. destruct e, e'. cbn in *. subst. reflexivity.
Qed.

(* the info column holds blanks and whatever the names hold: no quote or line break *)
Definition textc (ch : ascii) : bool := not_quote ch && not_nl ch.
(* the constant words of the info column: lower-case letters and blanks *)
Definition wordc (ch : ascii) : bool := Ascii.eqb ch " " || (Ascii.leb "a" ch && Ascii.leb ch "z").

Lemma within_textc (g : ascii -> bool) : g """"%char = false -> g nlc = false -> forall ch, g ch = true -> textc ch = true.
Proof.
  intros Hq Hn ch H. unfold textc, not_quote, not_nl. rewrite (all_but g """" Hq ch H), (all_but g nlc Hn ch H). reflexivity.
Qed.

Lemma diff_info_chars f e :
  (forall ch, wordc ch = true -> f ch = true) -> chars f (rpeer_str (de_src e)) -> chars f (rpeer_str (de_dst e)) ->
  chars f (diff_info e).
Proof.
  intros W S D. pose proof (fun s => all_chars_weaken wordc f s W) as K.
  assert (T : chars f (dtype_str (de_type e))) by (apply K; destruct (de_type e); reflexivity).
  unfold diff_info. destruct (de_src_flag e), (de_dst_flag e); cbn [orb andb]; [| | |reflexivity];
    repeat apply chars_app; first [assumption|apply K; reflexivity].
Qed.

Definition drow_fields (r : drow) : list string := [dr_type r; dr_src r; dr_dst r; dr_c1 r; dr_c2 r; dr_info r].
Definition drow_alphabets : list (ascii -> bool) := [plain; plain; plain; conn_char; conn_char; textc].
Definition drow_ok (r : drow) : Prop := fields_in drow_alphabets (drow_fields r).

Lemma drow_fields_inj r r' : drow_fields r = drow_fields r' -> r = r'.
Proof. destruct r, r'. intros [= -> -> -> -> -> ->]. reflexivity. Qed.

Lemma drow_of_ok e : dentry_ok e -> drow_ok (drow_of e).
Proof.
  intros He. pose proof He as (S & D & _ & C1 & C2 & _).
  pose proof (rpeer_str_plain _ (proj1 S)) as PS. pose proof (rpeer_str_plain _ (proj1 D)) as PD.
  unfold drow_ok. cbn [drow_alphabets drow_fields fields_in]. destruct (drow_conns e He) as [-> ->].
  repeat split; [apply dtype_str_plain|exact PS|exact PD|exact (cs_string_chars _ C1)|exact (cs_string_chars _ C2)|].
  apply (diff_info_chars textc e (within_textc wordc eq_refl eq_refl));
    apply (all_chars_weaken plain textc _ (within_textc plain eq_refl eq_refl)); assumption.
Qed.

Definition changedb (e : dentry) : bool := negb (dtype_eqb (de_type e) DUnchanged).

Lemma groups_partition (d : list dentry) :
  let g t ic := filter (fun e => dtype_eqb (de_type e) t && Bool.eqb (is_ic e) ic) d in
  Permutation (g DChanged false ++ g DAdded false ++ g DRemoved false ++ g DChanged true ++ g DAdded true ++ g DRemoved true)
              (filter changedb d).
Proof.
  cbn zeta. induction d as [|e t IH]; [constructor|]. cbn [filter]. unfold changedb at 1.
  destruct (de_type e), (is_ic e); cbn [dtype_eqb Bool.eqb andb negb app]; try exact IH;
    repeat rewrite <- Permutation_middle; constructor; exact IH.
Qed.

Lemma diff_lines_perm line d :
  Permutation (diff_lines line d) (map (fun e => line (drow_of e)) (filter changedb d)).
Proof.
  unfold diff_lines. cbn zeta.
  eapply Permutation_trans.
  { repeat apply Permutation_app; apply strsort_perm. }
  rewrite <- !map_app. apply Permutation_map. apply groups_partition.
Qed.

Lemma diff_empty_changed d : diff_is_empty d = true -> filter changedb d = [].
Proof.
  intros H. apply filter_none. unfold diff_is_empty in H. rewrite forallb_forall in H. apply Forall_forall.
  intros e He. unfold changedb. rewrite (H e He). reflexivity.
Qed.

Lemma diff_lines_nonempty line d : diff_is_empty d = false -> diff_lines line d <> [].
Proof.
  intros H E. pose proof (diff_lines_perm line d) as P. rewrite E in P. apply Permutation_nil, map_eq_nil in P.
  unfold diff_is_empty in H. rewrite (proj2 (forallb_forall _ d)) in H; [discriminate H|]. intros e He.
  destruct (dtype_eqb (de_type e) DUnchanged) eqn:T; [reflexivity|exfalso].
  assert (K : In e (filter changedb d)) by (apply filter_In; split; [exact He|unfold changedb; rewrite T; reflexivity]).
  rewrite P in K. exact K.
Qed.

(* md and txt: a header line h and the lines, wrapped by w *)
Lemma diff_text_determine line (w : string -> string) h d d' :
  self_delimiting drow_ok (fun r => line r ++ nl) -> (forall r, line r <> "") ->
  h <> "" -> (forall a, a <> "" -> w a <> "") -> (forall a b, w a = w b -> a = b) -> Forall dentry_ok d -> Forall dentry_ok d' ->
  (if diff_is_empty d then "" else w (join nl (h :: diff_lines line d)))
  = (if diff_is_empty d' then "" else w (join nl (h :: diff_lines line d'))) ->
  Permutation (filter changedb d) (filter changedb d').
Proof.
  intros HD HN Hh Hw Hwi Hd Hd' H. destruct (diff_is_empty d) eqn:E, (diff_is_empty d') eqn:E'.
  - rewrite (diff_empty_changed d E), (diff_empty_changed d' E'). constructor.
  - exfalso. symmetry in H. exact (Hw _ (join_nonempty nl h _ Hh) H).
  - exfalso. exact (Hw _ (join_nonempty nl h _ Hh) H).
  - apply Hwi, join_tail_eq in H; [|discriminate].
    refine (items_determine dentry_ok (fun e => line (drow_of e)) nl _ _ _ _ _ _ (fun e _ => HN _)
             (incl_Forall (incl_filter _ d) Hd) (incl_Forall (incl_filter _ d') Hd') (diff_lines_perm line d) (diff_lines_perm line d') H).
    + exact (self_delimiting_map dentry_ok drow_ok drow_of _ drow_of_ok drow_of_inj HD).
    + discriminate.
Qed.

Definition diff_md_header : string :=
  "| diff-type | source | destination | dir1 | dir2 | workloads-diff-info |" ++ nl ++
  "|-----------|--------|-------------|------|------|---------------------|".

(* about variables: with the literal separators in the goal every rewrite types them again *)
Lemma drow_shape k0 k1 k2 k3 k4 k5 k6 r X :
  (k0 ++ dr_type r ++ k1 ++ dr_src r ++ k2 ++ dr_dst r ++ k3 ++ dr_c1 r ++ k4 ++ dr_c2 r ++ k5 ++ dr_info r ++ k6) ++ X
  = k0 ++ cells [k1; k2; k3; k4; k5; k6] (drow_fields r) X.
Proof. rewrite !append_assoc. reflexivity. Qed.

Lemma diff_md_line_delimiting : self_delimiting drow_ok (fun r => diff_md_line r ++ nl).
Proof.
  apply (framed_delimiting drow_fields drow_alphabets _ "| " [" | "; " | "; " | "; " | "; " | "; " |" ++ nl]);
    [|reflexivity|exact drow_fields_inj].
  intros r X. rewrite append_assoc. exact (drow_shape "| " " | " " | " " | " " | " " | " " |" r (nl ++ X)).
Qed.

Theorem diff_md_inj d d' :
  Forall dentry_ok d -> Forall dentry_ok d' -> diff_md d = diff_md d' ->
  Permutation (filter changedb d) (filter changedb d').
Proof.
  intros Hd Hd'.
  apply (diff_text_determine diff_md_line (fun a => a) diff_md_header d d' diff_md_line_delimiting);
    [discriminate|discriminate|intros a Ha; exact Ha|intros a b E; exact E|exact Hd|exact Hd'].
Qed.

(* the decidable form of the hypothesis, for the check *)
Definition rpeer_nobarb (p : rpeer) : bool := rpeer_printableb p && all_chars nobar (rpeer_str p).
Definition dentry_printableb (e : dentry) : bool :=
  rpeer_nobarb (de_src e) && rpeer_nobarb (de_dst e) && negb (rpeer_eqb (de_src e) (de_dst e))
  && cs_ninvb (de_c1 e) && cs_ninvb (de_c2 e)
  && (if dtype_eqb (de_type e) DAdded then cs_struct_eqb (de_c1 e) (cs_make false) else true)
  && (if dtype_eqb (de_type e) DRemoved then cs_struct_eqb (de_c2 e) (cs_make false) else true).

Lemma rpeer_nobarb_spec p : rpeer_nobarb p = true -> dpeer_ok p.
Proof. intros H. apply andb_prop in H. destruct H as [A B]. split; [exact (rpeer_printableb_spec p A)|exact B]. Qed.

Lemma dentry_printableb_spec e : dentry_printableb e = true -> dentry_ok e.
Proof.
  unfold dentry_printableb, dentry_ok. intros H.
  apply andb_prop in H. destruct H as [H H7]. apply andb_prop in H. destruct H as [H H6]. apply andb_prop in H. destruct H as [H H5].
  apply andb_prop in H. destruct H as [H H4]. apply andb_prop in H. destruct H as [H H3]. apply andb_prop in H. destruct H as [H1 H2].
  split; [exact (rpeer_nobarb_spec _ H1)|]. split; [exact (rpeer_nobarb_spec _ H2)|]. split.
  { intros E. rewrite E, (proj2 (rpeer_eqb_spec _ _) eq_refl) in H3. discriminate H3. }
  split; [apply cs_ninvb_spec; exact H4|]. split; [apply cs_ninvb_spec; exact H5|]. split.
  - intros T. rewrite T in H6. apply cs_struct_eqb_spec. exact H6.
  - intros T. rewrite T in H7. apply cs_struct_eqb_spec. exact H7.
Qed.

Definition dprintable_mismatches (cs : list dfmt_case) : list (nat * nat) :=
  flat_map (fun c => if forallb dentry_printableb (df_diff c) then [] else [(df_id c, 5%nat)]) cs.
