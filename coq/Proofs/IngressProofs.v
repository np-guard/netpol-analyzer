(* The {ingress-controller} lines of Model/Ingress.v are exactly the pointwise statement of C10: a line to workload k
   carries (TCP, n) iff some Route/Ingress of k's namespace has a backend naming a kept Service that selects k and
   reaches n, and the policies allow (TCP, n) from the ingress-controller pod into k; otherwise there is no line and a
   blocked-ingress warning.  Every set the analyzer builds stores TCP only and is a fold of additions ([tcp_ports],
   [fold_adds]). *)
From Coq Require Import List ZArith Bool String.
From NP Require Import Basics ConnSet ConnSetProofs World Eval Spec EvalProofs Build Connlist ListProofs Ingress.
Import ListNotations.
Open Scope list_scope.
Open Scope Z_scope.

Definition is_some {A} (o : option A) : bool := match o with Some _ => true | None => false end.

Lemma is_some_find {A} (f : A -> bool) l : is_some (find f l) = existsb f l.
Proof. induction l as [|x t IH]; cbn [find existsb]; [reflexivity|]. destruct (f x); [reflexivity|exact IH]. Qed.

Definition tcp_only (c : connset) : Prop :=
  cs_pre c /\ cs_get c UDP = None /\ cs_get c SCTP = None.

Lemma tcp_only_make : tcp_only (cs_make false).
Proof. split; [apply cs_make_false_pre|]. split; reflexivity. Qed.

Lemma tcp_only_wf c : tcp_only c -> cs_wf c.
Proof. intros [H _]. apply H. Qed.
Lemma tcp_only_all c : tcp_only c -> cs_all c = false.
Proof. intros [H _]. apply H. Qed.

Lemma no_udp_not_all c : cs_get c UDP = None -> cs_is_all_without_allowall c = false.
Proof.
  intros Hu. destruct (cs_is_all_without_allowall c) eqn:E; [|reflexivity].
  apply cs_iawa_gen in E. destruct E as [_ E]. destruct (E UDP) as (ps & E0 & _).
  rewrite Hu in E0. discriminate E0.
Qed.

Lemma tcp_only_ninv c : tcp_only c -> cs_ninv c.
Proof.
  intros [Hp [Hu _]]. apply cs_pre_iff in Hp. destruct Hp as [Ha Hg].
  apply cs_ninv_iff. split; [exact Hg|]. split; [|exact (no_udp_not_all c Hu)].
  intros H. rewrite Ha in H. discriminate H.
Qed.

Lemma tcp_only_denote_other c q n : tcp_only c -> q <> TCP -> cs_denote c q n = false.
Proof.
  intros [Hp [Hu Hs]] Hq. rewrite cs_denote_eq. destruct Hp as (_ & _ & Ha & _). rewrite Ha.
  destruct q; [congruence| rewrite Hu | rewrite Hs]; cbn [opt_mem orb]; apply andb_false_r.
Qed.

Lemma tcp_only_addconn c ps : tcp_only c -> ps_wf ps -> ps_numeric ps -> tcp_only (cs_addconn c TCP ps).
Proof.
  intros [Hp [Hu Hs]] Hw Hn. split; [apply cs_addconn_pre; assumption|].
  unfold cs_addconn. destruct (ps_isempty ps); [split; assumption|].
  destruct (cs_get c TCP); rewrite !cs_get_set; cbn [proto_eqb]; split; assumption.
Qed.

(* the union is the entrywise one: with nothing stored for UDP it cannot turn into the all-connections set *)
Lemma tcp_only_union c o : tcp_only c -> tcp_only o -> tcp_only (cs_union c o).
Proof.
  intros Hc Ho. rewrite cs_union_eq, (tcp_only_all c Hc), (tcp_only_all o Ho). cbn [orb].
  destruct (cs_isempty o); [exact Hc|].
  destruct Hc as [Hpc [Huc Hsc]]. destruct Ho as [Hpo [Huo Hso]].
  apply cs_pre_iff in Hpc. destruct Hpc as [Hac Hgc]. apply cs_pre_iff in Hpo. destruct Hpo as [_ Hgo].
  set (m := cs_map (fun p mine => union_entry mine (cs_get o p)) c).
  assert (Hmu : cs_get m UDP = None) by (unfold m; rewrite cs_get_map, Huc, Huo; reflexivity).
  assert (Hms : cs_get m SCTP = None) by (unfold m; rewrite cs_get_map, Hsc, Hso; reflexivity).
  unfold cs_check_all. rewrite (no_udp_not_all m Hmu). split; [|split; assumption].
  apply cs_pre_iff. unfold m. split; [rewrite cs_all_map; exact Hac|].
  intros p. rewrite cs_get_map. apply union_entry_good; [exact (Hgc p)|exact (Hgo p)].
Qed.

Definition tcp_ports (c : connset) (f : Z -> bool) : Prop :=
  tcp_only c /\ forall q m, cs_denote c q m = proto_eqb TCP q && f m.

Lemma tcp_ports_ext c f g : (forall m, f m = g m) -> tcp_ports c f -> tcp_ports c g.
Proof. intros E [H1 H2]. split; [exact H1|]. intros q m. rewrite <- E. apply H2. Qed.

Lemma tcp_ports_make : tcp_ports (cs_make false) (fun _ => false).
Proof. split; [exact tcp_only_make|]. intros q m. rewrite cs_make_denote, !andb_false_r. reflexivity. Qed.

(* a step of the analyzer: one port is added, or nothing *)
Lemma tcp_ports_add c f (b : bool) n :
  tcp_ports c f -> (b = true -> valid_port n = true) ->
  tcp_ports (if b then cs_addconn c TCP (ps_add_range (ps_make false) n n) else c) (fun m => f m || (b && (n =? m))).
Proof.
  intros [Hc Hf] Hv. destruct b; cbn [andb].
  - specialize (Hv eq_refl). split.
    + apply tcp_only_addconn; [exact Hc|apply single_port_wf; exact Hv|apply ps_add_range_numeric, ps_make_numeric].
    + intros q m. rewrite cs_addconn_denote by (first [apply tcp_only_wf; exact Hc | apply single_port_wf; exact Hv]).
      rewrite Hf, range_mem, leb_antisym_eqb. symmetry. apply andb_orb_distrib_r.
  - split; [exact Hc|]. intros q m. rewrite orb_false_r. apply Hf.
Qed.

Lemma tcp_ports_union c o f g : tcp_ports c f -> tcp_ports o g -> tcp_ports (cs_union c o) (fun m => f m || g m).
Proof.
  intros [Hc Hf] [Ho Hg]. split; [apply tcp_only_union; assumption|].
  intros q m. rewrite cs_union_denote by (apply tcp_only_wf; assumption).
  rewrite Hf, Hg. symmetry. apply andb_orb_distrib_r.
Qed.

Lemma tcp_ports_contains c f n : tcp_ports c f -> cs_contains c TCP n = f n.
Proof.
  intros [Hc Hf]. rewrite contains_denote by (first [apply tcp_only_wf; exact Hc | apply tcp_only_all; exact Hc]).
  apply Hf.
Qed.

Lemma tcp_ports_valid c f n : tcp_ports c f -> f n = true -> valid_port n = true.
Proof.
  intros [_ Hf] H. specialize (Hf TCP n). rewrite H in Hf. unfold cs_denote in Hf.
  apply andb_true_iff in Hf. apply Hf.
Qed.

Definition otcp_ports (o : option connset) (f : Z -> bool) : Prop :=
  match o with Some c => tcp_ports c f | None => forall m, f m = false end.

Lemma otcp_ports_ext o f g : (forall m, f m = g m) -> otcp_ports o f -> otcp_ports o g.
Proof.
  intros E H. destruct o as [c|]; cbn [otcp_ports] in *; [exact (tcp_ports_ext c f g E H)|].
  intros m. rewrite <- E. apply H.
Qed.

Lemma otcp_ports_union a c f g :
  otcp_ports a f -> otcp_ports c g -> otcp_ports (opt_union a c) (fun m => f m || g m).
Proof.
  intros Ha Hc. destruct c as [x|]; [destruct a as [y|]|]; cbn [opt_union otcp_ports] in *.
  - apply tcp_ports_union; assumption.
  - apply (tcp_ports_ext x g); [|exact Hc]. intros m. rewrite Ha. reflexivity.
  - apply (otcp_ports_ext a f); [|exact Ha]. intros m. rewrite Hc, orb_false_r. reflexivity.
Qed.

Lemma opt_union_some (a c : option connset) : is_some (opt_union a c) = is_some a || is_some c.
Proof. destruct a, c; reflexivity. Qed.

(* [R] relates a store to the ports it holds: [tcp_ports], or [otcp_ports] for a map entry that may not exist yet *)
Lemma fold_adds {S A} (R : S -> (Z -> bool) -> Prop) (step : S -> A -> S) (hit : A -> Z -> bool) l s :
  (forall s f g, (forall m, f m = g m) -> R s f -> R s g) ->
  (forall s f a, In a l -> R s f -> R (step s a) (fun m => f m || hit a m)) ->
  R s (fun _ => false) -> R (fold_left step l s) (fun m => existsb (fun a => hit a m) l).
Proof.
  intros Hext Hstep.
  enough (G : forall f, R s f -> R (fold_left step l s) (fun m => f m || existsb (fun a => hit a m) l))
    by exact (G (fun _ => false)).
  revert s. induction l as [|a t IH]; intros s f Hs; cbn [fold_left existsb].
  - apply (Hext s f); [|exact Hs]. intros m. rewrite orb_false_r. reflexivity.
  - apply (Hext _ (fun m => (f m || hit a m) || existsb (fun a => hit a m) t)).
    + intros m. rewrite orb_assoc. reflexivity.
    + apply IH; [intros s0 f0 a0 Ha0; apply Hstep; right; exact Ha0|].
      apply Hstep; [left; reflexivity|exact Hs].
Qed.

Lemma opt_fold_ports {A} (F : A -> option connset) (g : A -> Z -> bool) l :
  (forall x, In x l -> otcp_ports (F x) (g x)) ->
  otcp_ports (fold_left (fun a x => opt_union a (F x)) l None) (fun m => existsb (fun x => g x m) l).
Proof.
  intros H. apply (fold_adds otcp_ports); [exact otcp_ports_ext| |intros m; reflexivity].
  intros s f x Hx Hs. apply otcp_ports_union; [exact Hs|exact (H x Hx)].
Qed.

Lemma opt_fold_some {A} (F : A -> option connset) l : forall acc,
  is_some (fold_left (fun a x => opt_union a (F x)) l acc) = is_some acc || existsb (fun x => is_some (F x)) l.
Proof.
  induction l as [|x t IH]; intros acc; cbn [fold_left existsb]; [symmetry; apply orb_false_r|].
  rewrite IH, opt_union_some, orb_assoc. reflexivity.
Qed.

Lemma exposed_tcp_ok p : pod_okb p = true -> tcp_ports (exposed_tcp p) (tcp_container_port p).
Proof.
  intros Hok. unfold pod_okb in Hok. rewrite forallb_forall in Hok.
  apply (fold_adds tcp_ports); [exact tcp_ports_ext| |exact tcp_ports_make].
  intros s f c Hc Hs.
  pose proof (tcp_ports_add s f (proto_eqb (cp_proto c) TCP) (cp_num c) Hs (fun _ => Hok c Hc)) as G.
  destruct (cp_proto c); exact G.
Qed.

Lemma peer_ing_conn_ok bt p sps req :
  pod_okb p = true -> tcp_ports (peer_ing_conn bt p sps req) (reaches bt p sps req).
Proof.
  intros Hp. pose proof (exposed_tcp_ok p Hp) as Hexp.
  apply (fold_adds tcp_ports); [exact tcp_ports_ext| |exact tcp_ports_make].
  intros s f a _ Hs. destruct (resolve_access p a) as [n|].
  - (* the port is added iff the pod has it as a TCP container port *)
    rewrite (tcp_ports_contains _ _ n Hexp).
    apply (tcp_ports_ext _ (fun m => f m || (tcp_container_port p n && (n =? m)))).
    + intros m. destruct (Z.eqb_spec n m) as [<-|_]; [rewrite andb_true_r|rewrite andb_false_r]; reflexivity.
    + apply tcp_ports_add; [exact Hs|exact (tcp_ports_valid _ _ n Hexp)].
  - apply (tcp_ports_ext s f); [|exact Hs]. intros m. rewrite orb_false_r. reflexivity.
Qed.

(* GetSelectedPeers returns peers of the engine: every peer stored with a kept service is one of wls *)
Definition svcs_from (wls : list (string * pod)) (tbl : list (key2 * (list (string * pod) * list svc_port))) : Prop :=
  forall k peers ports, In (k, (peers, ports)) tbl -> forall e, In e peers -> In e wls.

Lemma upsert_in {A} (k : key2) (v : A) l x : In x (upsert k v l) -> x = (k, v) \/ In x l.
Proof.
  induction l as [|[k0 v0] t IH]; cbn [upsert]; [intros [<-|[]]; left; reflexivity|].
  destruct (key2_eqb k k0); intros [<-|H]; cbn [In]; auto. destruct (IH H); auto.
Qed.

Lemma lookup2_in {A} (k : key2) (l : list (key2 * A)) v : lookup2 k l = Some v -> exists k', In (k', v) l.
Proof.
  induction l as [|[k0 v0] t IH]; cbn [lookup2]; intros H; [discriminate H|].
  destruct (key2_eqb k k0).
  - inversion H; subst v0. exists k0. left. reflexivity.
  - destruct (IH H) as [k' Hk]. exists k'. right. exact Hk.
Qed.

Lemma ia_add_from wls ia o : svcs_from wls (ia_svcs ia) -> svcs_from wls (ia_svcs (ia_add wls ia o)).
Proof.
  intros H. destruct o as [s|d|r]; cbn [ia_add].
  - destruct (sv_sel s) as [sel|]; [|exact H].
    destruct (selected_peers wls (sv_ns s) sel) as [|e0 t0] eqn:E; [exact H|].
    cbn [ia_svcs]. intros k peers ports Hin e He.
    apply upsert_in in Hin. destruct Hin as [Hv|Hin]; [|exact (H k peers ports Hin e He)].
    injection Hv as _ -> _. rewrite <- E in He. apply filter_In in He. apply He.
  - destruct (ingress_services d); exact H.
  - destruct (route_services r); exact H.
Qed.

Lemma analyze_from wls os : svcs_from wls (ia_svcs (analyze wls os)).
Proof.
  unfold analyze.
  assert (G : forall ia, svcs_from wls (ia_svcs ia) -> svcs_from wls (ia_svcs (fold_left (ia_add wls) os ia))).
  { induction os as [|o t IH]; intros ia H; cbn [fold_left]; [exact H|]. apply IH. apply ia_add_from. exact H. }
  apply G. intros k peers ports [].
Qed.

(* backend [r] of an object of namespace [ns] names a kept service that selects workload [k], and reaches its port [n] *)
Definition ref_targets (ia : analyzer) (ns k : string) (r : svc_ref) : bool :=
  match lookup2 (ns, sr_svc r) (ia_svcs ia) with
  | None => false
  | Some (peers, _) => existsb (fun e => String.eqb (fst e) k) peers
  end.
Definition ref_reaches (bt : bool) (ia : analyzer) (ns k : string) (r : svc_ref) (n : Z) : bool :=
  match lookup2 (ns, sr_svc r) (ia_svcs ia) with
  | None => false
  | Some (peers, ports) =>
      match find (fun e => String.eqb (fst e) k) peers with
      | None => false
      | Some e => reaches bt (snd e) ports (sr_port r) n
      end
  end.
Definition obj_targets (ia : analyzer) (k : string) (o : key2 * list svc_ref) : bool :=
  existsb (ref_targets ia (fst (fst o)) k) (snd o).

Lemma table_targets_eq ia tbl k : table_targets ia tbl k = existsb (obj_targets ia k) tbl.
Proof. reflexivity. Qed.

(* [nm] names an object of the table that targets [k] *)
Definition names_target (ia : analyzer) (tbl : list (key2 * list svc_ref)) (k : string) (nm : string) : Prop :=
  exists o, In o tbl /\ nm = (fst (fst o) ++ "/" ++ snd (fst o))%string /\
            existsb (fun rf => match lookup2 (fst (fst o), sr_svc rf) (ia_svcs ia) with
                               | None => false
                               | Some (peers, _) => existsb (fun e => String.eqb (fst e) k) peers
                               end) (snd o) = true.

Lemma ref_conn_some bt ia ns k r : is_some (ref_conn bt ia ns k r) = ref_targets ia ns k r.
Proof.
  unfold ref_conn, ref_targets. destruct (lookup2 (ns, sr_svc r) (ia_svcs ia)) as [[peers ports]|]; [|reflexivity].
  rewrite <- is_some_find. destruct (find _ peers); reflexivity.
Qed.

Lemma obj_conn_some bt ia k o : is_some (obj_conn bt ia (fst (fst o)) (snd o) k) = obj_targets ia k o.
Proof.
  unfold obj_conn. rewrite opt_fold_some. apply existsb_ext. intros r. apply ref_conn_some.
Qed.

Lemma kind_conn_some bt ia tbl k : is_some (kind_conn bt ia tbl k) = table_targets ia tbl k.
Proof.
  unfold kind_conn. rewrite opt_fold_some. apply existsb_ext. intros o. apply obj_conn_some.
Qed.

Lemma kind_names_eq bt ia tbl k :
  kind_names bt ia tbl k
  = map (fun o => (fst (fst o) ++ "/" ++ snd (fst o))%string) (filter (obj_targets ia k) tbl).
Proof.
  unfold kind_names. induction tbl as [|o t IH]; cbn [flat_map filter]; [reflexivity|].
  rewrite <- (obj_conn_some bt ia k o), IH. destruct (obj_conn bt ia _ _ k); reflexivity.
Qed.

Lemma kind_names_in bt ia tbl k nm : In nm (kind_names bt ia tbl k) -> names_target ia tbl k nm.
Proof.
  rewrite kind_names_eq, in_map_iff. intros (o & Hnm & Ho). apply filter_In in Ho.
  exists o. split; [apply Ho|]. split; [symmetry; exact Hnm|apply Ho].
Qed.

Lemma kind_names_nil bt ia tbl k : kind_names bt ia tbl k = [] -> table_targets ia tbl k = false.
Proof.
  rewrite kind_names_eq, table_targets_eq. induction tbl as [|o t IH]; cbn [filter existsb]; [reflexivity|].
  destruct (obj_targets ia k o); [discriminate|exact IH].
Qed.

Lemma target_conn_some strict ia k :
  is_some (opt_union (kind_conn (negb strict) ia (ia_ings ia) k) (kind_conn true ia (ia_routes ia) k))
  = spec_ing_targeted ia k.
Proof. rewrite opt_union_some, !kind_conn_some. apply orb_comm. Qed.

Lemma ing_targets_complete strict wls ia k p :
  In (k, p) wls -> spec_ing_targeted ia k = true ->
  exists t, In t (ing_targets strict wls ia) /\ it_key t = k /\ it_pod t = p.
Proof.
  intros Hin Ht. rewrite <- (target_conn_some strict) in Ht.
  destruct (opt_union (kind_conn (negb strict) ia (ia_ings ia) k) (kind_conn true ia (ia_routes ia) k)) as [c|] eqn:E; [|discriminate Ht].
  exists (mkIT k p c (kind_names (negb strict) ia (ia_ings ia) k) (kind_names true ia (ia_routes ia) k)).
  split; [|split; reflexivity].
  unfold ing_targets. apply in_flat_map. exists (k, p). split; [exact Hin|]. cbn [fst snd]. rewrite E. left. reflexivity.
Qed.

Section PerWorkload.
Variable wls : list (string * pod).
Variable ia : analyzer.
Hypothesis Hwls : forall k p, In (k, p) wls -> pod_okb p = true.
Hypothesis Hia : svcs_from wls (ia_svcs ia).

Lemma ref_conn_ok bt ns k r : otcp_ports (ref_conn bt ia ns k r) (ref_reaches bt ia ns k r).
Proof.
  unfold ref_conn, ref_reaches.
  destruct (lookup2 (ns, sr_svc r) (ia_svcs ia)) as [[peers ports]|] eqn:El; [|intros m; reflexivity].
  destruct (find (fun e => String.eqb (fst e) k) peers) as [[ke pe]|] eqn:Ef; [|intros m; reflexivity].
  apply peer_ing_conn_ok. apply find_some in Ef. destruct Ef as [Hin _].
  destruct (lookup2_in _ _ _ El) as [k' Hk']. exact (Hwls ke pe (Hia k' peers ports Hk' (ke, pe) Hin)).
Qed.

Lemma kind_conn_ok bt tbl k : otcp_ports (kind_conn bt ia tbl k) (table_reaches bt ia tbl k).
Proof.
  apply opt_fold_ports. intros o _. apply opt_fold_ports. intros r _. apply ref_conn_ok.
Qed.

(* mergeResults *)
Lemma target_conn_ok strict k :
  otcp_ports (opt_union (kind_conn (negb strict) ia (ia_ings ia) k) (kind_conn true ia (ia_routes ia) k))
             (spec_ing_port strict ia k).
Proof.
  apply (otcp_ports_ext _ (fun m => table_reaches (negb strict) ia (ia_ings ia) k m
                                     || table_reaches true ia (ia_routes ia) k m)).
  - intros m. apply orb_comm.
  - apply otcp_ports_union; apply kind_conn_ok.
Qed.

Lemma ing_targets_in strict t :
  In t (ing_targets strict wls ia) ->
  In (it_key t, it_pod t) wls /\ spec_ing_targeted ia (it_key t) = true /\ tcp_only (it_conn t) /\
  (forall q m, cs_denote (it_conn t) q m = proto_eqb TCP q && spec_ing_port strict ia (it_key t) m) /\
  it_ings t = kind_names (negb strict) ia (ia_ings ia) (it_key t) /\
  it_routes t = kind_names true ia (ia_routes ia) (it_key t).
Proof.
  unfold ing_targets. intros H. apply in_flat_map in H. destruct H as ([k p] & Hin & Ht).
  cbn [fst snd] in Ht. pose proof (target_conn_ok strict k) as C1. pose proof (target_conn_some strict ia k) as C2.
  destruct (opt_union (kind_conn (negb strict) ia (ia_ings ia) k) (kind_conn true ia (ia_routes ia) k)) as [c|]; [|destruct Ht].
  destruct Ht as [<-|[]]. cbn [it_key it_pod it_conn it_ings it_routes].
  split; [exact Hin|]. split; [symmetry; exact C2|]. split; [apply C1|]. split; [apply C1|]. split; reflexivity.
Qed.

End PerWorkload.

Definition wl_mpeer (k : string) (p : pod) : mpeer := mkMP (RW k) (Some p) (0, 0) (wl_name_of p) (p_ns p).
Definition ing_src : rpeer := RW ("{" ++ IngressPodName ++ "}")%string.

Definition in_focus (focus : string) (t : ing_target) : bool :=
  include_pair focus ingress_mpeer (wl_mpeer (it_key t) (it_pod t)).
Definition target_warn (t : ing_target) : ing_warn :=
  match it_ings t with
  | [] => mkIW (it_key t) false (it_routes t)
  | l => mkIW (it_key t) true l
  end.

Definition policy_allows (w : world) (dp : peer) (pr : proto) (n : Z) : bool :=
  valid_port n && (pod_to_itself (ingress_peer w) dp || s_allows w (ingress_peer w) dp pr n).

(* what getIngressAllowedConnections makes of one target: its line or, when nothing is allowed, its warning *)
Definition target_out (w : world) (t : ing_target) : outcome (rentry + ing_warn) :=
  do dp <- pod_peer w (it_pod t);
  do pc <- all_conns w (ingress_peer w) dp;
  let c := cs_inter (it_conn t) pc in
  Ok (if cs_isempty c then inr (target_warn t) else inl (mkRE ing_src (RW (it_key t)) c)).

Definition target_lines (w : world) (focus : string) (t : ing_target) : list rentry :=
  if in_focus focus t then match target_out w t with Ok (inl e) => [e] | _ => [] end else [].
Definition target_warns (w : world) (focus : string) (t : ing_target) : list ing_warn :=
  if in_focus focus t then match target_out w t with Ok (inr x) => [x] | _ => [] end else [].

Lemma in_target_lines w focus t e :
  In e (target_lines w focus t) -> in_focus focus t = true /\ target_out w t = Ok (inl e).
Proof.
  unfold target_lines. destruct (in_focus focus t); [|intros []].
  destruct (target_out w t) as [[e0|x]|er]; [|intros []|intros []]. intros [<-|[]]. split; reflexivity.
Qed.

Lemma in_target_warns w focus t x :
  In x (target_warns w focus t) -> in_focus focus t = true /\ target_out w t = Ok (inr x).
Proof.
  unfold target_warns. destruct (in_focus focus t); [|intros []].
  destruct (target_out w t) as [[e|x0]|er]; [intros []| |intros []]. intros [<-|[]]. split; reflexivity.
Qed.

Lemma ingress_lines_cons w focus t rest :
  ingress_lines w focus (t :: rest) =
  if in_focus focus t
  then do o <- target_out w t;
       do r <- ingress_lines w focus rest;
       Ok (match o with inl e => (e :: fst r, snd r) | inr x => (fst r, x :: snd r) end)
  else ingress_lines w focus rest.
Proof.
  cbn [ingress_lines]. change (include_pair focus ingress_mpeer _) with (in_focus focus t).
  destruct (in_focus focus t); [|reflexivity]. unfold target_out.
  destruct (pod_peer w (it_pod t)) as [dp|er]; [|reflexivity]. cbn [bind].
  destruct (all_conns w (ingress_peer w) dp) as [pc|er]; [|reflexivity]. cbn [bind].
  destruct (ingress_lines w focus rest) as [r|er]; [|reflexivity]. cbn [bind].
  destruct (cs_isempty (cs_inter (it_conn t) pc)); reflexivity.
Qed.

Lemma ingress_lines_spec w focus ts : forall es ws,
  ingress_lines w focus ts = Ok (es, ws) ->
  es = flat_map (target_lines w focus) ts /\ ws = flat_map (target_warns w focus) ts /\
  forall t, In t ts -> in_focus focus t = true -> exists o, target_out w t = Ok o.
Proof.
  induction ts as [|t rest IH]; intros es ws H.
  - injection H as <- <-. split; [reflexivity|]. split; [reflexivity|]. intros t [].
  - rewrite ingress_lines_cons in H. cbn [flat_map]. unfold target_lines at 1, target_warns at 1.
    destruct (in_focus focus t) eqn:Einc.
    + bind_inv H as o Eo. bind_inv H as r Er. destruct r as [es0 ws0]. cbn [fst snd] in H.
      destruct (IH es0 ws0 Er) as (Hes & Hws & I3). rewrite Eo, <- Hes, <- Hws. split; [|split].
      * destruct o; injection H as <- _; reflexivity.
      * destruct o; injection H as _ <-; reflexivity.
      * intros t0 [<-|Ht0] Hinc0; [exists o; exact Eo|exact (I3 t0 Ht0 Hinc0)].
    + destruct (IH es ws H) as (I1 & I2 & I3). split; [exact I1|]. split; [exact I2|].
      intros t0 [<-|Ht0] Hinc0; [rewrite Einc in Hinc0; discriminate Hinc0|exact (I3 t0 Ht0 Hinc0)].
Qed.

Lemma target_warn_peer t : iw_peer (target_warn t) = it_key t.
Proof. unfold target_warn. destruct (it_ings t); reflexivity. Qed.

Lemma target_out_key w t o :
  target_out w t = Ok o ->
  match o with
  | inl e => re_src e = ing_src /\ re_dst e = RW (it_key t)
  | inr x => x = target_warn t
  end.
Proof.
  unfold target_out. intros H. bind_inv H as dp Edp. bind_inv H as pc Epc.
  destruct (cs_isempty _); injection H as <-; [reflexivity|split; reflexivity].
Qed.

Lemma target_out_ok w t f o :
  world_okb w = true -> pod_okb (it_pod t) = true -> tcp_ports (it_conn t) f ->
  target_out w t = Ok o ->
  exists dp,
    match o with
    | inl e => re_src e = ing_src /\ re_dst e = RW (it_key t) /\ pod_peer w (it_pod t) = Ok dp /\
               cs_ninv (re_conn e) /\
               (exists pr n, cs_denote (re_conn e) pr n = true) /\
               forall pr n, cs_denote (re_conn e) pr n = proto_eqb TCP pr && f n && policy_allows w dp pr n
    | inr x => x = target_warn t /\ pod_peer w (it_pod t) = Ok dp /\
               forall pr n, proto_eqb TCP pr && f n && policy_allows w dp pr n = false
    end.
Proof.
  intros Hw Hpod [Htcp Hf] H. unfold target_out in H.
  bind_inv H as dp Edp. bind_inv H as pc Epc. exists dp. cbn zeta in H.
  assert (Hdpok : peer_okb dp = true) by (rewrite (pod_peer_okb _ _ _ Edp); exact Hpod).
  destruct (all_conns_ok w (ingress_peer w) dp pc Hdpok Hw Epc) as [Hpcn Hpcd].
  set (c := cs_inter (it_conn t) pc) in H.
  assert (Hcn : cs_ninv c) by (apply cs_inter_ninv; [apply tcp_only_ninv; exact Htcp|exact Hpcn]).
  assert (Hcd : forall pr n, cs_denote c pr n = proto_eqb TCP pr && f n && policy_allows w dp pr n).
  { intros pr n. unfold c. rewrite cs_inter_denote.
    - rewrite Hf, Hpcd. reflexivity.
    - apply tcp_only_wf. exact Htcp.
    - apply cs_ninv_wf. exact Hpcn.
    - intros Hall. rewrite (tcp_only_all _ Htcp) in Hall. discriminate Hall. }
  destruct (cs_isempty c) eqn:Eemp; injection H as <-.
  - split; [reflexivity|]. split; [exact Edp|].
    intros pr n. rewrite <- Hcd. apply (proj1 (cs_isempty_iff c Hcn) Eemp).
  - cbn [re_src re_dst re_conn]. split; [reflexivity|]. split; [reflexivity|]. split; [exact Edp|].
    split; [exact Hcn|]. split; [exact (cs_nonempty_witness c Hcn Eemp)|exact Hcd].
Qed.

Lemma ia_empty_not_targeted ia k : ia_empty ia = true -> spec_ing_targeted ia k = false.
Proof.
  unfold ia_empty, spec_ing_targeted. intros H.
  destruct (ia_svcs ia) as [|s0 st] eqn:Es.
  - assert (G : forall tbl, table_targets ia tbl k = false).
    { intros tbl. rewrite table_targets_eq. unfold obj_targets, ref_targets. rewrite Es. cbn [lookup2].
      induction tbl as [|o t IH]; cbn [existsb]; [reflexivity|]. rewrite IH, existsb_false. reflexivity. }
    rewrite !G. reflexivity.
  - destruct (ia_routes ia); [|discriminate H]. destruct (ia_ings ia); [|discriminate H]. reflexivity.
Qed.

Lemma wls_pods_ok pods :
  forallb pod_okb pods = true -> forall k p, In (k, p) (workloads_of pods []) -> pod_okb p = true.
Proof.
  intros H k p Hin. apply workloads_of_subset in Hin. destruct Hin as [(k0 & [])|Hin].
  rewrite forallb_forall in H. exact (H p Hin).
Qed.

Lemma target_warn_objs strict ia t :
  spec_ing_targeted ia (it_key t) = true ->
  it_ings t = kind_names (negb strict) ia (ia_ings ia) (it_key t) ->
  it_routes t = kind_names true ia (ia_routes ia) (it_key t) ->
  let x := target_warn t in
  iw_objs x <> [] /\
  forall nm, In nm (iw_objs x) -> names_target ia (if iw_is_ing x then ia_ings ia else ia_routes ia) (it_key t) nm.
Proof.
  intros Ht Ei Er. cbn zeta. unfold target_warn.
  destruct (it_ings t) as [|i0 il] eqn:E; cbn [iw_objs iw_is_ing].
  - symmetry in Ei. apply kind_names_nil in Ei. unfold spec_ing_targeted in Ht. rewrite Ei, orb_false_r in Ht.
    rewrite Er. split; [|intros nm; apply kind_names_in].
    intros Hnil. apply kind_names_nil in Hnil. rewrite Hnil in Ht. discriminate Ht.
  - split; [discriminate|]. rewrite Ei. intros nm. apply kind_names_in.
Qed.

(* C10 *)
Theorem list_world_ing_ok strict w ios focus r :
  world_okb w = true -> forallb pod_okb (w_pods w) = true ->
  list_world_ing strict w ios focus = Ok r ->
  let wls := workloads_of (w_pods w) [] in
  let ia := analyze wls ios in
  exists base lines,
    list_world w focus (negb (ia_empty ia)) = Ok base /\
    lr_entries (ir_list r) = lr_entries base ++ lines /\
    lr_peers (ir_list r) = lr_peers base /\ lr_warn (ir_list r) = lr_warn base /\
    (forall e, In e lines ->
       exists k p dp, In (k, p) wls /\ spec_ing_targeted ia k = true /\
         include_pair focus ingress_mpeer (wl_mpeer k p) = true /\
         re_src e = ing_src /\ re_dst e = RW k /\ pod_peer w p = Ok dp /\ cs_ninv (re_conn e) /\
         (exists pr n, cs_denote (re_conn e) pr n = true) /\
         forall pr n, cs_denote (re_conn e) pr n
                      = proto_eqb TCP pr && spec_ing_port strict ia k n && policy_allows w dp pr n) /\
    (forall x, In x (ir_warns r) ->
       exists k p dp, In (k, p) wls /\ spec_ing_targeted ia k = true /\ iw_peer x = k /\ pod_peer w p = Ok dp /\
         (forall pr n, proto_eqb TCP pr && spec_ing_port strict ia k n && policy_allows w dp pr n = false) /\
         iw_objs x <> [] /\
         forall nm, In nm (iw_objs x) -> names_target ia (if iw_is_ing x then ia_ings ia else ia_routes ia) k nm) /\
    (forall k p, In (k, p) wls -> spec_ing_targeted ia k = true -> lr_warn base = false ->
       include_pair focus ingress_mpeer (wl_mpeer k p) = true ->
       (exists e, In e lines /\ re_src e = ing_src /\ re_dst e = RW k) \/
       (exists x, In x (ir_warns r) /\ iw_peer x = k)).
Proof.
  intros Hw Hpods H. unfold list_world_ing in H.
  destruct (w_pods w) as [|p0 pt] eqn:Epods.
  - intros wls ia. injection H as <-. exists (mkLR [] [] false), []. unfold list_world. rewrite Epods.
    split; [reflexivity|]. split; [reflexivity|]. split; [reflexivity|]. split; [reflexivity|].
    split; [intros e []|]. split; [intros x []|]. intros k p [].
  - rewrite <- Epods in *. clear Epods p0 pt. intros wls ia.
    destruct (owners_consistent (w_pods w)); cbn [negb] in H; [|discriminate H].
    cbn zeta in H. fold wls in H. fold ia in H.
    bind_inv H as base Eb. exists base. destruct (lr_warn base || ia_empty ia) eqn:Eskip.
    + injection H as <-. exists []. split; [exact Eb|].
      split; [symmetry; apply app_nil_r|]. split; [reflexivity|]. split; [reflexivity|].
      split; [intros e []|]. split; [intros x []|].
      intros k p _ Ht Hnw _. apply orb_true_iff in Eskip. destruct Eskip as [E|E].
      * rewrite E in Hnw. discriminate Hnw.
      * rewrite (ia_empty_not_targeted ia k E) in Ht. discriminate Ht.
    + bind_inv H as lw El. destruct lw as [es ws]. injection H as <-. exists es.
      apply orb_false_iff in Eskip. destruct Eskip as [Enw _].
      split; [exact Eb|]. split; [reflexivity|]. split; [reflexivity|]. split; [symmetry; exact Enw|].
      cbn [ir_warns snd].
      pose proof (wls_pods_ok _ Hpods : forall k p, In (k, p) wls -> pod_okb p = true) as Hwls.
      pose proof (analyze_from wls ios : svcs_from wls (ia_svcs ia)) as Hia.
      destruct (ingress_lines_spec w focus _ es ws El) as (Hes & Hws & Hall).
      split; [|split].
      * intros e He. rewrite Hes in He. apply in_flat_map in He. destruct He as (t & Hin & He).
        apply in_target_lines in He. destruct He as [Hinc Ho].
        destruct (ing_targets_in wls ia Hwls Hia strict t Hin) as (A1 & A2 & A3 & A4 & _).
        destruct (target_out_ok w t _ _ Hw (Hwls _ _ A1) (conj A3 A4) Ho) as [dp R].
        exists (it_key t), (it_pod t), dp. split; [exact A1|]. split; [exact A2|]. split; [exact Hinc|exact R].
      * intros x Hx. rewrite Hws in Hx. apply in_flat_map in Hx. destruct Hx as (t & Hin & Hx).
        apply in_target_warns in Hx. destruct Hx as [_ Ho].
        destruct (ing_targets_in wls ia Hwls Hia strict t Hin) as (A1 & A2 & A3 & A4 & A5 & A6).
        destruct (target_out_ok w t _ _ Hw (Hwls _ _ A1) (conj A3 A4) Ho) as (dp & -> & Hdp & Hblk).
        exists (it_key t), (it_pod t), dp. split; [exact A1|]. split; [exact A2|].
        split; [apply target_warn_peer|]. split; [exact Hdp|]. split; [exact Hblk|].
        exact (target_warn_objs strict ia t A2 A5 A6).
      * intros k p Hin Ht _ Hinc.
        destruct (ing_targets_complete strict wls ia k p Hin Ht) as (t & Htin & <- & <-).
        destruct (Hall t Htin Hinc) as [o Ho]. pose proof (target_out_key w t o Ho) as Hk.
        rewrite Hes, Hws. destruct o as [e|x]; [left; exists e|right; exists x].
        -- split; [|exact Hk]. apply in_flat_map. exists t. split; [exact Htin|].
           unfold target_lines, in_focus. rewrite Hinc, Ho. left. reflexivity.
        -- split; [|rewrite Hk; apply target_warn_peer]. apply in_flat_map. exists t. split; [exact Htin|].
           unfold target_warns, in_focus. rewrite Hinc, Ho. left. reflexivity.
Qed.

(* unfoldings quoted by C10 *)
Lemma access_ports_all bt sps req : ios_unset req = true -> access_ports bt sps req = map access_port sps.
Proof.
  intros H. induction sps as [|sp t IH]; cbn [access_ports map]; [reflexivity|]. rewrite H, IH. reflexivity.
Qed.

Lemma access_ports_designated bt sps req :
  ios_unset req = false ->
  access_ports bt sps req = match find (fun sp => designates bt sp req) sps with
                            | Some sp => [access_port sp]
                            | None => []
                            end.
Proof.
  intros H. induction sps as [|sp t IH]; cbn [access_ports find]; [reflexivity|]. rewrite H.
  destruct (designates bt sp req); [reflexivity|exact IH].
Qed.

Lemma reaches_iff bt p sps req n :
  reaches bt p sps req n = true <->
  exists a, In a (access_ports bt sps req) /\ resolve_access p a = Some n /\ tcp_container_port p n = true.
Proof.
  unfold reaches. rewrite existsb_exists. split.
  - intros (a & Hin & Ha). exists a. split; [exact Hin|].
    destruct (resolve_access p a) as [m|]; [|discriminate Ha].
    apply andb_true_iff in Ha. destruct Ha as [Hm Ht]. apply Z.eqb_eq in Hm. subst m. split; [reflexivity|exact Ht].
  - intros (a & Hin & Hr & Ht). exists a. split; [exact Hin|]. rewrite Hr, Ht, Z.eqb_refl. reflexivity.
Qed.

Lemma table_reaches_iff bt ia tbl k n :
  table_reaches bt ia tbl k n = true <->
  exists o r peers ports e,
    In o tbl /\ In r (snd o) /\ lookup2 (fst (fst o), sr_svc r) (ia_svcs ia) = Some (peers, ports) /\
    find (fun e => String.eqb (fst e) k) peers = Some e /\ reaches bt (snd e) ports (sr_port r) n = true.
Proof.
  unfold table_reaches. split.
  - intros H. apply existsb_exists in H. destruct H as (o & Hin & Ho).
    apply existsb_exists in Ho. destruct Ho as (r & Hr & H). exists o, r. unfold key2 in *.
    destruct (lookup2 _ (ia_svcs ia)) as [[peers ports]|]; [|discriminate H]. exists peers, ports.
    destruct (find _ peers) as [e|]; [|discriminate H]. exists e.
    split; [exact Hin|]. split; [exact Hr|]. split; [reflexivity|]. split; [reflexivity|exact H].
  - intros (o & r & peers & ports & e & Hin & Hr & El & Ef & H). apply existsb_exists. exists o. split; [exact Hin|].
    apply existsb_exists. exists r. split; [exact Hr|]. unfold key2 in *. rewrite El, Ef. exact H.
Qed.

(* the two designation rules agree unless an Ingress backend's port number meets a targetPort *)
Lemma designates_agree sp req :
  ios_eqb (sp_target sp) req = false -> designates true sp req = designates false sp req.
Proof. intros H. unfold designates. rewrite H. cbn [andb]. rewrite !orb_false_r. reflexivity. Qed.

Lemma access_ports_agree sps req :
  (forall sp, In sp sps -> ios_eqb (sp_target sp) req = false) ->
  access_ports true sps req = access_ports false sps req.
Proof.
  induction sps as [|sp t IH]; intros H; cbn [access_ports]; [reflexivity|].
  rewrite (designates_agree sp req (H sp (or_introl eq_refl))).
  rewrite (IH (fun x Hx => H x (or_intror Hx))). reflexivity.
Qed.

Definition no_target_coincidence (ia : analyzer) : Prop :=
  forall o r key peers ports sp,
    In o (ia_ings ia) -> In r (snd o) -> In (key, (peers, ports)) (ia_svcs ia) -> In sp ports ->
    ios_eqb (sp_target sp) (sr_port r) = false.

Lemma obj_conn_agree ia o k :
  no_target_coincidence ia -> In o (ia_ings ia) ->
  obj_conn true ia (fst (fst o)) (snd o) k = obj_conn false ia (fst (fst o)) (snd o) k.
Proof.
  intros Hn Ho. unfold obj_conn. apply fold_left_ext_in. intros a r Hr. f_equal.
  unfold ref_conn. destruct (lookup2 (fst (fst o), sr_svc r) (ia_svcs ia)) as [[peers ports]|] eqn:El; [|reflexivity].
  destruct (find (fun e => String.eqb (fst e) k) peers) as [e|]; [|reflexivity].
  destruct (lookup2_in _ _ _ El) as [key Hkey].
  unfold peer_ing_conn. rewrite (access_ports_agree ports (sr_port r) (fun sp Hsp => Hn o r key peers ports sp Ho Hr Hkey Hsp)).
  reflexivity.
Qed.

Theorem ing_targets_agree wls ia :
  no_target_coincidence ia -> ing_targets false wls ia = ing_targets true wls ia.
Proof.
  intros Hn. unfold ing_targets. apply flat_map_ext_in. intros e _. cbn [negb].
  assert (Hk : kind_conn true ia (ia_ings ia) (fst e) = kind_conn false ia (ia_ings ia) (fst e)).
  { unfold kind_conn. apply fold_left_ext_in. intros a o Ho. f_equal. exact (obj_conn_agree ia o (fst e) Hn Ho). }
  rewrite Hk, (kind_names_eq true), (kind_names_eq false). reflexivity.
Qed.

Theorem list_world_ing_agree w ios focus :
  no_target_coincidence (analyze (workloads_of (w_pods w) []) ios) ->
  list_world_ing false w ios focus = list_world_ing true w ios focus.
Proof.
  intros Hn. unfold list_world_ing. destruct (w_pods w) as [|p0 pt] eqn:Ep; [reflexivity|]. rewrite <- Ep in *.
  rewrite (ing_targets_agree _ _ Hn). reflexivity.
Qed.
