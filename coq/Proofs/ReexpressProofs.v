(* Connectivity is per workload (C17): the semantics and the computed connection sets look at a pod only through its
   namespace, labels and container ports, so controller kind, replica count and pod names cannot matter. *)
From Coq Require Import List ZArith Bool String.
From NP Require Import ConnSetProofs World Eval Spec EvalProofs Build EngineProofs Basics SpecProofs.
Import ListNotations.
Open Scope list_scope.
Open Scope Z_scope.

(* the functions that look into a pod read p_ns, p_labels and p_ports, which [view] keeps: there the two sides are
   convertible *)
Lemma s_np_rule_vw npns r o d pr n : s_np_rule npns r (vw o) (vw d) pr n = s_np_rule npns r o d pr n.
Proof.
  unfold s_np_rule, s_np_rule_peers, s_np_rule_ports. f_equal.
  - destruct (nr_peers r); [reflexivity|]. apply existsb_ext. intros pe. destruct pe, o; reflexivity.
  - destruct (nr_ports r); [reflexivity|]. apply existsb_ext. intros pp. unfold s_np_port_matches. destruct d; reflexivity.
Qed.

Lemma s_np_policy_allows_vw np s d ing pr n :
  s_np_policy_allows np (vw s) (vw d) ing pr n = s_np_policy_allows np s d ing pr n.
Proof. unfold s_np_policy_allows. rewrite if_vw. apply existsb_ext. intros r. apply s_np_rule_vw. Qed.

Lemma s_np_layer_vw w s d ing pr n : s_np_layer w (vw s) (vw d) ing pr n = s_np_layer w s d ing pr n.
Proof.
  rewrite !s_np_layer_eq, if_vw. destruct (if ing then d else s) as [p l|b]; cbn [vw]; [|reflexivity].
  apply (f_equal2 (fun governed allowed : bool => if governed then Some allowed else None)); apply existsb_ext; intros np.
  - reflexivity.
  - rewrite s_np_policy_allows_vw. reflexivity.
Qed.

Lemma s_admin_rule_matches_vw r o d pr n : s_admin_rule_matches r (vw o) (vw d) pr n = s_admin_rule_matches r o d pr n.
Proof.
  unfold s_admin_rule_matches. f_equal.
  - apply existsb_ext. intros ap. destruct ap, o; reflexivity.
  - destruct (ar_ports r); [|reflexivity]. apply existsb_ext. intros ap. destruct ap, d; reflexivity.
Qed.

Lemma s_rules_verdict_vw rules o d pr n : s_rules_verdict rules (vw o) (vw d) pr n = s_rules_verdict rules o d pr n.
Proof.
  induction rules as [|r t IH]; cbn [s_rules_verdict]; [reflexivity|]. rewrite s_admin_rule_matches_vw, IH. reflexivity.
Qed.

Lemma s_admin_verdict_vw subj rules s d ing pr n :
  s_admin_verdict subj rules (vw s) (vw d) ing pr n = s_admin_verdict subj rules s d ing pr n.
Proof.
  unfold s_admin_verdict, s_admin_selects. rewrite !if_vw, s_rules_verdict_vw.
  destruct rules; [reflexivity|]. destruct subj, (if ing then d else s); reflexivity.
Qed.

Lemma s_anps_verdict_vw anps s d ing pr n : s_anps_verdict anps (vw s) (vw d) ing pr n = s_anps_verdict anps s d ing pr n.
Proof.
  induction anps as [|a t IH]; [reflexivity|]. rewrite !s_anps_verdict_cons, s_admin_verdict_vw, IH. reflexivity.
Qed.

Lemma s_banp_allows_vw w s d ing pr n : s_banp_allows w (vw s) (vw d) ing pr n = s_banp_allows w s d ing pr n.
Proof. rewrite !s_banp_allows_eq. destruct (w_banp w); [|reflexivity]. rewrite s_admin_verdict_vw. reflexivity. Qed.

Lemma s_allows_vw w s d pr n : s_allows w (vw s) (vw d) pr n = s_allows w s d pr n.
Proof.
  unfold s_allows, s_dir_allows. rewrite !s_anps_verdict_vw, !s_np_layer_vw, !s_banp_allows_vw. reflexivity.
Qed.

Theorem reexpress_conn_equal w s d s' d' c c' :
  vw s = vw s' -> vw d = vw d' ->
  pod_to_itself s d = false -> pod_to_itself s' d' = false ->
  peer_okb d = true -> peer_okb d' = true -> world_okb w = true ->
  all_conns w s d = Ok c -> all_conns w s' d' = Ok c' -> c = c'.
Proof.
  intros Hs Hd Hn Hn' Hok Hok' Hw Hc Hc'.
  destruct (all_conns_ok _ _ _ _ Hok Hw Hc) as [Hinv Hden].
  destruct (all_conns_ok _ _ _ _ Hok' Hw Hc') as [Hinv' Hden'].
  apply cs_ninv_ext; try assumption. intros pr n.
  rewrite Hden, Hden', Hn, Hn'. cbn [orb].
  rewrite <- (s_allows_vw w s d), <- (s_allows_vw w s' d'), Hs, Hd. reflexivity.
Qed.

Lemma pods_of_workload_view wl p :
  In p (pods_of_workload wl) ->
  view p = mkPod (wl_ns wl) EmptyString (wl_labels wl) (wl_ports wl) EmptyString EmptyString false /\
  p_owner_name p = wl_name wl /\ p_owner_kind p = wl_kind wl /\ p_ns p = wl_ns wl.
Proof.
  unfold pods_of_workload.
  destruct (match wl_replicas wl with Some r => if 1 <? r then 2%nat else 1%nat | None => 1%nat end) as [|[|m]];
    cbn [In]; intros H; repeat (destruct H as [<- | H]); try contradiction; repeat split; reflexivity.
Qed.

Theorem workload_pods_same_view wl1 wl2 p1 p2 :
  wl_ns wl1 = wl_ns wl2 -> wl_name wl1 = wl_name wl2 -> wl_labels wl1 = wl_labels wl2 -> wl_ports wl1 = wl_ports wl2 ->
  In p1 (pods_of_workload (norm_workload wl1)) -> In p2 (pods_of_workload (norm_workload wl2)) ->
  view p1 = view p2 /\ p_owner_name p1 = p_owner_name p2 /\ p_ns p1 = p_ns p2.
Proof.
  (* norm_workload changes the replica count only *)
  assert (N : forall wl p, In p (pods_of_workload (norm_workload wl)) ->
                view p = mkPod (wl_ns wl) EmptyString (wl_labels wl) (wl_ports wl) EmptyString EmptyString false /\
                p_owner_name p = wl_name wl /\ p_ns p = wl_ns wl).
  { intros wl p H. apply pods_of_workload_view in H. destruct H as (Hv & Ho & _ & Hn).
    unfold norm_workload in *. destruct (_ || _); repeat split; assumption. }
  intros Hns Hnm Hl Hp H1 H2.
  destruct (N _ _ H1) as (-> & -> & ->). destruct (N _ _ H2) as (-> & -> & ->).
  rewrite Hns, Hnm, Hl, Hp. repeat split; reflexivity.
Qed.
