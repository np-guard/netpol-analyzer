(* The reports of the model are inside the domain on which the rendering is injective: workload names built from
   blank-free namespace / name / kind strings and the blocks of the IPv4 partition. *)
From Coq Require Import List ZArith Bool String Ascii Lia Permutation.
From NP Require Import World Build Connlist Format EvalProofs ListProofs WfProofs PartitionProofs PartitionTiles StrInj RowInj.
Import ListNotations.
Open Scope string_scope.

Definition pod_plain (p : pod) : Prop :=
  all_chars plain (p_ns p) = true /\ all_chars plain (p_name p) = true /\
  all_chars plain (p_owner_name p) = true /\ all_chars plain (p_owner_kind p) = true.

Lemma wl_str_ok p : pod_plain p -> name_ok (wl_str p).
Proof.
  intros (H1 & H2 & H3 & H4). unfold name_ok, wl_str, wl_name_of, wl_kind_of.
  destruct (p_fake p).
  - split.
    + rewrite !all_chars_app, H2. reflexivity.
    + reflexivity.
  - split.
    + rewrite !all_chars_app, H1. destruct (String.eqb (p_owner_name p) ""), (String.eqb (p_owner_kind p) "");
        rewrite ?H2, ?H3, ?H4; reflexivity.
    + rewrite all_chars_app. exact (andb_false_r _).
Qed.

Lemma workloads_of_keyed pods : forall acc,
  (forall k p, In (k, p) acc -> k = wl_str p) -> forall k p, In (k, p) (workloads_of pods acc) -> k = wl_str p.
Proof.
  induction pods as [|q t IH]; intros acc Hacc k p H; cbn [workloads_of] in H; [exact (Hacc k p H)|].
  apply (IH _) in H; [exact H|]. clear H k p. intros k p H.
  destruct (existsb (fun e => String.eqb (fst e) (wl_str q)) acc).
  - apply in_map_iff in H. destruct H as ([k0 p0] & E & Hin). cbn [fst] in E.
    destruct (String.eqb k0 (wl_str q)); [injection E as <- <-; reflexivity|]. injection E as <- <-. exact (Hacc _ _ Hin).
  - apply in_app_or in H. destruct H as [H|[H|[]]]; [exact (Hacc _ _ H)|]. injection H as <- <-. reflexivity.
Qed.

Lemma partition_blocks_nonneg blocks : blocks_in_range blocks ->
  forall P, In P (ip_partition blocks) -> 0 <= fst P /\ 0 <= snd P.
Proof.
  intros Hr P H. change (ip_partition blocks) with (blocks_of_cuts (cuts_of blocks)) in H.
  pose proof (cuts_of_bounds blocks _ Hr (blocks_fst_in _ P H)) as B.
  pose proof (proj1 (blocks_no_cut_inside _ (cuts_of_sorted blocks) P H)) as L. lia.
Qed.

Theorem model_report_printable w focus hi r :
  list_world w focus hi = Ok r -> world_okb w = true -> forallb pod_okb (w_pods w) = true ->
  Forall pod_plain (w_pods w) ->
  (forall bl, referenced_blocks (w_nps w) = Ok bl -> blocks_in_range bl) ->
  Forall entry_ok (lr_entries r).
Proof.
  intros H Hw Hpods Hplain Hrange. apply Forall_forall. intros e He.
  destruct (list_world_entries_wf w focus hi r H Hw Hpods e He) as (_ & _ & _ & Hn).
  destruct (list_world_entries_sound _ _ _ _ H e He) as (s & d & sp & dp & Hs & Hd & _ & Hsrc & Hdst & _).
  assert (P : forall m, In m (mpeers_of w (ip_partition_of w)) -> peer_ok (mp_r m)).
  { intros m Hm. destruct (mpeers_of_inv w _ m Hm) as [(b & Hb & ->)|(k & p & Hin & Hp & ->)]; cbn [mp_r peer_ok].
    - unfold ip_partition_of in Hb. destruct (referenced_blocks (w_nps w)) as [bl|] eqn:E; [|destruct Hb].
      exact (partition_blocks_nonneg bl (Hrange bl eq_refl) b Hb).
    - pose proof (workloads_of_keyed (w_pods w) [] ltac:(intros ? ? []) k p Hin) as ->.
      apply wl_str_ok. rewrite Forall_forall in Hplain. exact (Hplain p Hp). }
  unfold entry_ok. rewrite Hsrc, Hdst. split; [exact (P s Hs)|]. split; [exact (P d Hd)|exact Hn].
Qed.

Corollary model_reports_print_differently w1 w2 f1 f2 h1 h2 r1 r2 :
  list_world w1 f1 h1 = Ok r1 -> world_okb w1 = true -> forallb pod_okb (w_pods w1) = true -> Forall pod_plain (w_pods w1) ->
  (forall bl, referenced_blocks (w_nps w1) = Ok bl -> blocks_in_range bl) ->
  list_world w2 f2 h2 = Ok r2 -> world_okb w2 = true -> forallb pod_okb (w_pods w2) = true -> Forall pod_plain (w_pods w2) ->
  (forall bl, referenced_blocks (w_nps w2) = Ok bl -> blocks_in_range bl) ->
  list_txt (lr_entries r1) = list_txt (lr_entries r2) \/ list_md (lr_entries r1) = list_md (lr_entries r2) \/
  list_csv (lr_entries r1) = list_csv (lr_entries r2) \/ list_json (lr_entries r1) = list_json (lr_entries r2) ->
  Permutation (lr_entries r1) (lr_entries r2).
Proof.
  intros A1 A2 A3 A4 A5 B1 B2 B3 B4 B5 H.
  pose proof (model_report_printable _ _ _ _ A1 A2 A3 A4 A5) as P1.
  pose proof (model_report_printable _ _ _ _ B1 B2 B3 B4 B5) as P2.
  destruct H as [H|[H|[H|H]]]; [apply list_txt_inj|apply list_md_inj|apply list_csv_inj|apply list_json_inj]; assumption.
Qed.
