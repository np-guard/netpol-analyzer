(* The dot output of `list --exposure` is a function of the multiset of connections, the set of peers, the set of
   exposed workloads and the multiset of the entries of each, provided the node name of a representative peer determines
   its label and namespace label (decidable; evaluated by the check on every implementation result). *)
From Coq Require Import List Bool Permutation.
From NP Require Import Basics Format XFormat XDot FormatProofs XFormatProofs.
Import ListNotations.
Open Scope string_scope.

Definition nodes_consistent (items : list xitem) : Prop :=
  forall i j, In i items -> In j items -> rep_node i = rep_node j -> node_proj i = node_proj j.

Lemma nodes_consistentb_spec items : nodes_consistentb items = true -> nodes_consistent items.
Proof.
  unfold nodes_consistentb, nodes_consistent. intros H i j Hi Hj E. rewrite forallb_forall in H. specialize (H i Hi).
  rewrite forallb_forall in H. specialize (H j Hj). rewrite E, String.eqb_refl in H. cbn [negb orb] in H.
  apply andb_true_iff in H. destruct H as [H1 H2]. apply String.eqb_eq in H1. apply String.eqb_eq in H2.
  unfold node_proj. f_equal; assumption.
Qed.

(* which item of a node name is met first depends on the order, what it contributes does not *)
Lemma node_projs_perm items items' : nodes_consistent items -> Permutation items items' -> node_projs items = node_projs items'.
Proof.
  intros Hc P. unfold node_projs. rewrite (strsort_map_perm rep_node _ _ P). apply flat_map_ext. intros n.
  destruct (find _ items) as [i|] eqn:F, (find _ items') as [j|] eqn:F'; [| | |reflexivity].
  - apply find_some in F, F'. destruct F as [Hi Ei], F' as [Hj Ej]. apply String.eqb_eq in Ei, Ej.
    rewrite (Hc i j Hi (Permutation_in j (Permutation_sym P) Hj)) by congruence. reflexivity.
  - apply find_some in F. destruct F as [Hi Ei]. rewrite (find_none _ _ F' i (Permutation_in i P Hi)) in Ei. discriminate.
  - apply find_some in F'. destruct F' as [Hj Ej]. rewrite (find_none _ _ F j (Permutation_in j (Permutation_sym P) Hj)) in Ej. discriminate.
Qed.

Lemma x_items_equiv p q : xp_equiv p q -> Permutation (x_items p) (x_items q).
Proof.
  intros H. destruct (xp_equiv_inv p q H) as (ing & eg & P1 & P2 & ->).
  unfold x_items. cbn [xp_ing_prot xp_eg_prot xp_ing xp_eg]. apply Permutation_app.
  - destruct (xp_ing_prot p); [apply filter_perm; exact P1|constructor].
  - destruct (xp_eg_prot p); [apply filter_perm; exact P2|constructor].
Qed.

Lemma x_edges_equiv ingress p q : xp_equiv p q -> Permutation (x_edges ingress p) (x_edges ingress q).
Proof.
  intros H. destruct (xp_equiv_inv p q H) as (ing & eg & P1 & P2 & ->).
  unfold x_edges. cbn [xp_str xp_ing_prot xp_eg_prot xp_ing xp_eg]. destruct ingress.
  - destruct (xp_ing_prot p); [apply Permutation_map; exact P1|apply Permutation_refl].
  - destruct (xp_eg_prot p); [apply Permutation_map; exact P2|apply Permutation_refl].
Qed.

Lemma uses_cluster_equiv p q : xp_equiv p q -> uses_cluster p = uses_cluster q.
Proof.
  intros H. destruct (xp_equiv_inv p q H) as (ing & eg & P1 & P2 & ->).
  unfold uses_cluster. cbn [xp_ing_prot xp_eg_prot xp_ing xp_eg]. rewrite (existsb_perm _ _ _ P1), (existsb_perm _ _ _ P2). reflexivity.
Qed.

Theorem exposure_dot_order_independent es es' ps ps' xps mid xps' :
  Permutation es es' -> Permutation ps ps' -> NoDup (map dp_str ps) ->
  Permutation xps mid -> Forall2 xp_equiv mid xps' ->
  nodes_consistent (flat_map x_items xps) ->
  list_exposure_dot es ps xps = list_exposure_dot es' ps' xps'.
Proof.
  intros Pe Pp Hn Pm Hq Hc. unfold list_exposure_dot.
  assert (I : Permutation (flat_map x_items xps) (flat_map x_items xps'))
    by exact (flat_map_perm_upto _ _ _ _ _ _ Pm Hq x_items_equiv).
  assert (C : existsb uses_cluster xps = existsb uses_cluster xps')
    by (rewrite (existsb_perm _ _ _ Pm); exact (existsb_forall2 _ _ _ _ _ Hq uses_cluster_equiv)).
  assert (E : Permutation (x_all_edges es xps) (x_all_edges es' xps')).
  { unfold x_all_edges. apply Permutation_app; [apply Permutation_map; exact Pe|].
    apply (flat_map_perm_upto _ _ _ _ _ _ Pm Hq). intros p q Hpq. apply Permutation_app; apply x_edges_equiv; exact Hpq. }
  rewrite (strsort_perm_invariant _ _ (dot_strs_perm _ _ _ _ Pe Pp)), (dot_visited_perm _ _ _ Pp Hn).
  rewrite (node_projs_perm _ _ Hc I), C, (strsort_perm_invariant _ _ E). reflexivity.
Qed.
