(* Each of the txt, md, csv and json outputs of `list` determines the report: two reports whose entries are printable
   (canonical connection sets, IPv4 ranges, workload names without blanks that do not look like an address range) and
   that print identically have the same entries.  A printed row is its three fields, each followed by a separator that
   its alphabet excludes. *)
From Coq Require Import List ZArith Bool String Ascii Lia Permutation.
From NP Require Import ConnSet ConnSetProofs Connlist Format FormatProofs Basics StrInj ConnInj.
Import ListNotations.
Open Scope string_scope.

Lemma div_mod_eq a b k : (0 < k)%Z -> (a / k = b / k)%Z -> (a mod k = b mod k)%Z -> a = b.
Proof. intros Hk Hd Hm. rewrite (Z.div_mod a k), (Z.div_mod b k), Hd, Hm by lia. reflexivity. Qed.

Definition nlc : ascii := ascii_of_nat 10.
Definition is_ipc (ch : ascii) : bool := is_digit ch || Ascii.eqb ch ".".
Definition is_rangec (ch : ascii) : bool := is_ipc ch || Ascii.eqb ch "-".
Definition plain (ch : ascii) : bool :=
  negb (Ascii.eqb ch " ") && negb (Ascii.eqb ch nlc) && negb (Ascii.eqb ch ",") && negb (Ascii.eqb ch """").
Definition not_nl (ch : ascii) : bool := negb (Ascii.eqb ch nlc).
Definition not_quote (ch : ascii) : bool := negb (Ascii.eqb ch """").

Lemma digit_ipc ch : is_digit ch = true -> is_ipc ch = true.
Proof. intros H. unfold is_ipc. rewrite H. reflexivity. Qed.
Lemma ipc_rangec ch : is_ipc ch = true -> is_rangec ch = true.
Proof. intros H. unfold is_rangec. rewrite H. reflexivity. Qed.
Lemma rangec_plain ch : is_rangec ch = true -> plain ch = true.
Proof.
  intros H. unfold plain.
  rewrite (all_but is_rangec " " eq_refl ch H), (all_but is_rangec nlc eq_refl ch H),
          (all_but is_rangec "," eq_refl ch H), (all_but is_rangec """" eq_refl ch H). reflexivity.
Qed.

Lemma ip_str_chars a : (0 <= a)%Z -> all_chars is_ipc (ip_str a) = true.
Proof.
  intros H. unfold ip_str. rewrite !all_chars_app. cbn.
  assert (D : forall z, (0 <= z)%Z -> all_chars is_ipc (Z_str z) = true).
  { intros z Hz. exact (all_chars_weaken is_digit is_ipc _ digit_ipc (Z_str_digits z Hz)). }
  rewrite (D (a / 16777216)%Z) by (apply Z.div_pos; lia).
  rewrite !D by (apply Z.mod_pos_bound; lia). reflexivity.
Qed.

Lemma ip_str_inj a b : (0 <= a)%Z -> (0 <= b)%Z -> ip_str a = ip_str b -> a = b.
Proof.
  intros Ha Hb H.
  assert (P : forall x, (0 <= x)%Z -> (0 <= x / 16777216)%Z) by (intros; apply Z.div_pos; lia).
  assert (Q : forall x, (0 <= x mod 256)%Z) by (intros; apply Z.mod_pos_bound; lia).
  destruct (cells_inj [is_digit; is_digit; is_digit] ["."; "."; "."] [_; _; _] [_; _; _] _ _ eq_refl
              (conj (Z_str_digits _ (P a Ha)) (conj (Z_str_digits _ (Q _)) (conj (Z_str_digits _ (Q _)) I)))
              (conj (Z_str_digits _ (P b Hb)) (conj (Z_str_digits _ (Q _)) (conj (Z_str_digits _ (Q _)) I))) H) as [E E4].
  injection E as E1 E2 E3.
  apply (Z_str_inj _ _ (P a Ha) (P b Hb)) in E1. apply (Z_str_inj _ _ (Q _) (Q _)) in E2.
  apply (Z_str_inj _ _ (Q _) (Q _)) in E3. apply (Z_str_inj _ _ (Q _) (Q _)) in E4.
  (* the four bytes are the remainders of a, a/256, a/256/256 and the quotient a/256/256/256 *)
  apply (div_mod_eq a b 256 eq_refl); [|exact E4]. apply (div_mod_eq _ _ 256 eq_refl); [|exact E3].
  rewrite !(Z.div_div _ 256 256) by lia. apply (div_mod_eq _ _ 256 eq_refl); [|exact E2].
  rewrite !(Z.div_div _ (256 * 256) 256) by lia. exact E1.
Qed.

Definition name_ok (s : string) : Prop := all_chars plain s = true /\ all_chars is_rangec s = false.
Definition peer_ok (p : rpeer) : Prop :=
  match p with RW s => name_ok s | RIP lo hi => (0 <= lo /\ 0 <= hi)%Z end.

Lemma range_chars lo hi : (0 <= lo)%Z -> (0 <= hi)%Z -> all_chars is_rangec (ip_str lo ++ "-" ++ ip_str hi) = true.
Proof.
  intros H1 H2. rewrite !all_chars_app. cbn.
  rewrite (all_chars_weaken is_ipc is_rangec _ ipc_rangec (ip_str_chars lo H1)).
  rewrite (all_chars_weaken is_ipc is_rangec _ ipc_rangec (ip_str_chars hi H2)). reflexivity.
Qed.

Lemma rpeer_str_plain p : peer_ok p -> all_chars plain (rpeer_str p) = true.
Proof.
  destruct p as [s|lo hi]; cbn [peer_ok rpeer_str]; [intros [H _]; exact H|]. intros [H1 H2].
  apply (all_chars_weaken is_rangec); [exact rangec_plain|apply range_chars; assumption].
Qed.

Lemma rpeer_str_inj p q : peer_ok p -> peer_ok q -> rpeer_str p = rpeer_str q -> p = q.
Proof.
  destruct p as [s|lo hi], q as [t|lo' hi']; cbn [peer_ok rpeer_str].
  - intros _ _ ->. reflexivity.
  - intros [_ N] [H1 H2] E. subst s. rewrite range_chars in N by assumption. discriminate.
  - intros [H1 H2] [_ N] E. subst t. rewrite range_chars in N by assumption. discriminate.
  - intros [H1 H2] [H3 H4] E.
    destruct (delimits is_ipc "-" eq_refl _ _ _ _ (ip_str_chars _ H1) (ip_str_chars _ H3) E) as [E1 E2].
    apply ip_str_inj in E1; [|assumption|assumption]. apply ip_str_inj in E2; [|assumption|assumption]. subst. reflexivity.
Qed.

Definition entry_ok (e : rentry) : Prop := peer_ok (re_src e) /\ peer_ok (re_dst e) /\ cs_ninv (re_conn e).

Definition row_fields (r : row) : list string := [r_src r; r_dst r; r_conn r].
Definition row_ok (r : row) : Prop := fields_in [plain; plain; conn_char] (row_fields r).

Lemma row_fields_inj r r' : row_fields r = row_fields r' -> r = r'.
Proof. destruct r, r'. intros [= -> -> ->]. reflexivity. Qed.

Lemma row_of_ok e : entry_ok e -> row_ok (row_of e).
Proof.
  intros (S & D & C). exact (conj (rpeer_str_plain _ S) (conj (rpeer_str_plain _ D) (conj (cs_string_chars _ C) I))).
Qed.

Lemma row_of_inj e e' : entry_ok e -> entry_ok e' -> row_of e = row_of e' -> e = e'.
Proof.
  intros (S & D & C) (S' & D' & C'). destruct e as [s d c], e' as [s' d' c']. cbn [re_src re_dst re_conn] in *.
  unfold row_of. cbn [re_src re_dst re_conn]. intros [= E1 E2 E3].
  apply rpeer_str_inj in E1; [|assumption|assumption]. apply rpeer_str_inj in E2; [|assumption|assumption].
  apply cs_string_inj in E3; [|assumption|assumption]. subst. reflexivity.
Qed.

Lemma sorted_rows_printed (pr : row -> string) es :
  Permutation (map pr (rowsort (map row_of es))) (map (fun e => pr (row_of e)) es).
Proof. rewrite <- (map_map row_of pr). apply Permutation_map, rowsort_perm. Qed.

Lemma row_printer_delimiting (pr : row -> string) k0 k1 k2 k3 :
  (forall r X, pr r ++ X = k0 ++ cells [k1; k2; k3] (row_fields r) X) ->
  leave_all [plain; plain; conn_char] [k1; k2; k3] = true -> self_delimiting row_ok pr.
Proof.
  intros Sh HK. exact (framed_delimiting row_fields _ pr k0 [k1; k2; k3] Sh HK row_fields_inj).
Qed.

Lemma entry_printer_delimiting (pr : row -> string) :
  self_delimiting row_ok pr -> self_delimiting entry_ok (fun e => pr (row_of e)).
Proof. exact (self_delimiting_map entry_ok row_ok row_of pr row_of_ok row_of_inj). Qed.

(* txt: the connection runs to the end of the line *)
Lemma txt_line_delimiting : self_delimiting row_ok (fun r => txt_line r ++ nl).
Proof.
  apply (row_printer_delimiting _ "" " => " " : " nl); [|reflexivity].
  intros r X. unfold txt_line. rewrite !append_assoc. reflexivity.
Qed.

Theorem list_txt_inj es es' :
  Forall entry_ok es -> Forall entry_ok es' -> list_txt es = list_txt es' -> Permutation es es'.
Proof.
  intros Hes Hes' H. unfold list_txt in H. apply append_inj_r in H.
  refine (items_determine entry_ok (fun e => txt_line (row_of e)) nl es es' _ _ _ _ _ Hes Hes' (strsort_perm _) (strsort_perm _) H).
  - exact (entry_printer_delimiting _ txt_line_delimiting).
  - discriminate.
  - intros e _. unfold txt_line. destruct (r_src (row_of e)); discriminate.
Qed.

(* about variables: with the literal separators in the goal every rewrite types them again *)
Lemma row_shape k0 k1 k2 k3 r X :
  (k0 ++ r_src r ++ k1 ++ r_dst r ++ k2 ++ r_conn r ++ k3) ++ X = k0 ++ cells [k1; k2; k3] (row_fields r) X.
Proof. rewrite !append_assoc. reflexivity. Qed.

Lemma md_line_delimiting : self_delimiting row_ok (fun r => md_line r ++ nl).
Proof.
  apply (row_printer_delimiting _ "| " " | " " | " (" |" ++ nl)); [|reflexivity].
  intros r X. rewrite append_assoc. exact (row_shape "| " " | " " | " " |" r (nl ++ X)).
Qed.

Theorem list_md_inj es es' :
  Forall entry_ok es -> Forall entry_ok es' -> list_md es = list_md es' -> Permutation es es'.
Proof.
  intros Hes Hes' H. unfold list_md in H. apply append_inj_r in H. apply join_tail_eq in H; [|discriminate].
  refine (items_determine entry_ok (fun e => md_line (row_of e)) nl es es' _ _ _ _ _ Hes Hes'
            (sorted_rows_printed md_line es) (sorted_rows_printed md_line es') H).
  - exact (entry_printer_delimiting _ md_line_delimiting).
  - discriminate.
  - intros e _. discriminate.
Qed.

Lemma json_obj_delimiting : self_delimiting row_ok (fun r => json_obj r ++ "," ++ nl).
Proof.
  pose (k0 := "  {" ++ nl ++ "    ""src"": """). pose (k1 := """," ++ nl ++ "    ""dst"": """).
  pose (k2 := """," ++ nl ++ "    ""conn"": """). pose (k3 := """" ++ nl ++ "  }").
  apply (row_printer_delimiting _ k0 k1 k2 (k3 ++ "," ++ nl)); [|reflexivity].
  intros r X. rewrite append_assoc. exact (row_shape k0 k1 k2 k3 r (("," ++ nl) ++ X)).
Qed.

Theorem list_json_inj es es' :
  Forall entry_ok es -> Forall entry_ok es' -> list_json es = list_json es' -> Permutation es es'.
Proof.
  intros Hes Hes' H. destruct es as [|e es], es' as [|e' es'].
  - constructor.
  - exfalso. unfold list_json, nl in H. cbn [append] in H. discriminate.
  - exfalso. unfold list_json, nl in H. cbn [append] in H. discriminate.
  - unfold list_json in H. apply append_inj_l in H. apply append_inj_l in H. apply append_inj_r in H.
    refine (items_determine entry_ok (fun e => json_obj (row_of e)) ("," ++ nl) _ _ _ _ _ _ _ Hes Hes'
              (sorted_rows_printed json_obj _) (sorted_rows_printed json_obj _) H).
    + exact (entry_printer_delimiting _ json_obj_delimiting).
    + discriminate.
    + intros r _. discriminate.
Qed.

Lemma has_char_none f c s : all_chars f s = true -> f c = false -> has_char c s = false.
Proof.
  intros Hs Hc. induction s as [|x s IH]; [reflexivity|]. cbn in *. apply andb_true_iff in Hs. destruct Hs as [Hx Hs].
  rewrite (IH Hs), orb_false_r. destruct (Ascii.eqb_spec x c); [subst; congruence|reflexivity].
Qed.

Lemma no_has_char_all c s : has_char c s = false -> all_chars (fun ch => negb (Ascii.eqb ch c)) s = true.
Proof.
  induction s as [|x s IH]; [reflexivity|]. cbn [has_char all_chars]. intros H. apply orb_false_iff in H. destruct H as [A B].
  rewrite A, (IH B). reflexivity.
Qed.

Lemma double_quotes_id s : has_char """" s = false -> double_quotes s = s.
Proof.
  induction s as [|x s IH]; [reflexivity|]. cbn. intros H. apply orb_false_iff in H. destruct H as [H1 H2].
  rewrite H1, (IH H2). reflexivity.
Qed.

Lemma csv_field_unquoted s : all_chars not_quote s = true ->
  csv_field s = if has_char "," s then """" ++ s ++ """" else s.
Proof.
  intros H. unfold csv_field. pose proof (has_char_none not_quote """" s H eq_refl) as Q.
  rewrite Q, orb_false_r, (double_quotes_id s Q). reflexivity.
Qed.

(* encoding/csv quotes a field iff it holds a comma or a quote.  A field without quotes, followed by c: quoted, it ends
   at the closing quote; bare, it holds no comma, and is assumed to hold no c either *)
Lemma csv_field_split c s s' R R' :
  not_quote c = true -> all_chars not_quote s = true -> all_chars not_quote s' = true ->
  (has_char "," s = false -> all_chars (fun ch => negb (Ascii.eqb ch c)) s = true) ->
  (has_char "," s' = false -> all_chars (fun ch => negb (Ascii.eqb ch c)) s' = true) ->
  csv_field s ++ String c R = csv_field s' ++ String c R' -> s = s' /\ R = R'.
Proof.
  intros Hc Q Q' B B' H. rewrite (csv_field_unquoted s Q), (csv_field_unquoted s' Q') in H.
  assert (MIX : forall a b Z Z', all_chars not_quote b = true -> String """" a ++ Z = b ++ String c Z' -> False).
  { intros a b Z Z' Hb E. destruct b as [|x b]; cbn [append] in E; injection E as E _.
    - subst c. discriminate Hc.
    - subst x. discriminate Hb. }
  destruct (has_char "," s) eqn:K, (has_char "," s') eqn:K'; cbv iota in H.
  - rewrite !append_assoc in H. injection H as H.
    destruct (delimits not_quote (String """" (String c "")) eq_refl s s' R R' Q Q') as [E1 E2]; [exact H|split; assumption].
  - exfalso. exact (MIX _ _ _ _ Q' H).
  - exfalso. symmetry in H. exact (MIX _ _ _ _ Q H).
  - exact (delimits _ (String c "") (f_equal (fun b => negb b && true) (Ascii.eqb_refl c)) s s' R R' (B eq_refl) (B' eq_refl) H).
Qed.

Lemma csv_fields_inj fs l l' X X' :
  forallb (fun f => negb (f """"%char || f nlc)) fs = true -> fields_in fs l -> fields_in fs l' ->
  join "," (map csv_field l) ++ nl ++ X = join "," (map csv_field l') ++ nl ++ X' -> l = l' /\ X = X'.
Proof.
  revert l l'. induction fs as [|f fs IH]; intros [|a l] [|a' l']; cbn [forallb fields_in]; try contradiction.
  { intros _ _ _ H. injection H as H. split; [reflexivity|exact H]. }
  intros K [Fa Hl] [Fa' Hl'] H. apply andb_prop in K. destruct K as [K1 K2].
  apply negb_true_iff, orb_false_elim in K1. destruct K1 as [Kq Kn].
  pose proof (fun s => chars_without f """" s Kq) as NQ.
  destruct fs as [|g fs].
  - destruct l, l'; try contradiction.
    destruct (csv_field_split nlc a a' X X' eq_refl (NQ _ Fa) (NQ _ Fa')
                (fun _ => chars_without f nlc _ Kn Fa) (fun _ => chars_without f nlc _ Kn Fa') H) as [-> ->].
    split; reflexivity.
  - destruct l as [|b l], l' as [|b' l']; try contradiction. cbn [map] in H. rewrite !join_cons, !append_assoc in H.
    destruct (csv_field_split "," a a' _ _ eq_refl (NQ _ Fa) (NQ _ Fa') (no_has_char_all "," a) (no_has_char_all "," a') H) as [-> H2].
    destruct (IH (b :: l) (b' :: l') K2 Hl Hl' H2) as [-> ->]. split; reflexivity.
Qed.

Lemma csv_row_delimiting {A} (fields : A -> list string) fs :
  forallb (fun f => negb (f """"%char || f nlc)) fs = true -> (forall a a', fields a = fields a' -> a = a') ->
  self_delimiting (fun a => fields_in fs (fields a)) (fun a => csv_row (fields a)).
Proof.
  intros K Hinj a a' X X' Fa Fa' H. unfold csv_row in H. rewrite !append_assoc in H.
  destruct (csv_fields_inj fs _ _ X X' K Fa Fa' H) as [E EX]. split; [exact (Hinj a a' E)|exact EX].
Qed.

Theorem list_csv_inj es es' :
  Forall entry_ok es -> Forall entry_ok es' -> list_csv es = list_csv es' -> Permutation es es'.
Proof.
  intros Hes Hes' H. unfold list_csv in H. apply append_inj_l in H.
  refine (cat_determines entry_ok row_of (fun r => csv_row (row_fields r)) es es' _ _ _ _ Hes Hes' (rowsort_perm _) (rowsort_perm _) H).
  - exact (entry_printer_delimiting _ (csv_row_delimiting row_fields [plain; plain; conn_char] eq_refl row_fields_inj)).
  - intros e _. apply append_nonempty_r. discriminate.
Qed.

(* the check runs this on every report of the implementation *)
Definition rpeer_printableb (p : rpeer) : bool :=
  match p with
  | RW s => all_chars plain s && negb (all_chars is_rangec s)
  | RIP lo hi => (0 <=? lo)%Z && (0 <=? hi)%Z
  end.
Definition entry_printableb (e : rentry) : bool :=
  rpeer_printableb (re_src e) && rpeer_printableb (re_dst e) && cs_ninvb (re_conn e).

Lemma rpeer_printableb_spec p : rpeer_printableb p = true -> peer_ok p.
Proof.
  destruct p as [s|lo hi]; cbn [rpeer_printableb peer_ok]; intros H; apply andb_prop in H; destruct H as [A B].
  - split; [exact A|]. apply negb_true_iff. exact B.
  - split; apply Z.leb_le; assumption.
Qed.

Lemma entry_printableb_spec e : entry_printableb e = true -> entry_ok e.
Proof.
  unfold entry_printableb, entry_ok. intros H. apply andb_prop in H. destruct H as [H H3]. apply andb_prop in H. destruct H as [H1 H2].
  split; [exact (rpeer_printableb_spec _ H1)|]. split; [exact (rpeer_printableb_spec _ H2)|]. apply cs_ninvb_spec. exact H3.
Qed.

Definition printable_mismatches (cs : list fmt_case) : list (nat * nat) :=
  flat_map (fun c => if forallb entry_printableb (fm_entries c) then [] else [(fm_id c, 5%nat)]) cs.

(* C09: so the four formats carry the same information *)
Lemma list_txt_iff es es' : Forall entry_ok es -> Forall entry_ok es' -> (list_txt es = list_txt es' <-> Permutation es es').
Proof. intros H H'. split; [apply list_txt_inj; assumption|apply list_txt_perm_invariant]. Qed.
Lemma list_md_iff es es' : Forall entry_ok es -> Forall entry_ok es' -> (list_md es = list_md es' <-> Permutation es es').
Proof. intros H H'. split; [apply list_md_inj; assumption|apply list_md_perm_invariant]. Qed.
Lemma list_csv_iff es es' : Forall entry_ok es -> Forall entry_ok es' -> (list_csv es = list_csv es' <-> Permutation es es').
Proof. intros H H'. split; [apply list_csv_inj; assumption|apply list_csv_perm_invariant]. Qed.
Lemma list_json_iff es es' : Forall entry_ok es -> Forall entry_ok es' -> (list_json es = list_json es' <-> Permutation es es').
Proof. intros H H'. split; [apply list_json_inj; assumption|apply list_json_perm_invariant]. Qed.

Corollary formats_equivalent es es' : Forall entry_ok es -> Forall entry_ok es' ->
  (list_txt es = list_txt es' <-> list_md es = list_md es') /\
  (list_txt es = list_txt es' <-> list_csv es = list_csv es') /\
  (list_txt es = list_txt es' <-> list_json es = list_json es').
Proof.
  intros H H'. rewrite (list_txt_iff es es' H H'), (list_md_iff es es' H H'), (list_csv_iff es es' H H'), (list_json_iff es es' H H').
  repeat split; intros P; exact P.
Qed.
