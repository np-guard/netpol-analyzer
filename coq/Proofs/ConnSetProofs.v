(* Model/ConnSet.v on connection sets whose stored port sets carry no names: the operations denote the right sets of
   (protocol, port) points, the canonical form is unique, AllowAll is recognised.  Of the named ports only what the
   string sets, ps_union and GetNamedPorts do with names is here. *)
From Coq Require Import List ZArith Bool Lia.
From NP Require Import IntervalSet IntervalSetProofs ConnSet Basics.
From NP Require World.
Import ListNotations.
Open Scope Z_scope.

Definition ps_wf (ps : portset) : Prop :=
  canon (ps_ports ps) /\ withinb minPort maxPort (ps_ports ps) = true.
Definition cs_wf (c : connset) : Prop := forall p ps, cs_get c p = Some ps -> ps_wf ps.

Definition ps_numeric (ps : portset) : Prop := ps_named ps = [] /\ ps_excl ps = [].
Definition cs_numeric (c : connset) : Prop := forall p ps, cs_get c p = Some ps -> ps_numeric ps.

(* the canonical form of a name-free set *)
Definition cs_ninv (c : connset) : Prop :=
  cs_wf c /\ cs_numeric c /\
  (cs_all c = true -> forall p, cs_get c p = None) /\
  (forall p ps, cs_get c p = Some ps -> ps_ports ps <> []) /\
  cs_is_all_without_allowall c = false.

(* A rule's connection set: AddConnection of name-free, non-empty port sets into the empty set.  The Union into an
   accumulator that follows re-establishes [cs_ninv] whatever the AddConnection calls built: this is how every rule
   set reaches a report. *)
Definition cs_pre (c : connset) : Prop :=
  cs_wf c /\ cs_numeric c /\ cs_all c = false /\
  (forall p ps, cs_get c p = Some ps -> ps_ports ps <> []).

(* used as verified checkers on implementation outputs *)
Definition ps_wfb (ps : portset) : bool :=
  canonb (ps_ports ps) && withinb minPort maxPort (ps_ports ps).
Definition ps_numericb (ps : portset) : bool :=
  match ps_named ps, ps_excl ps with [], [] => true | _, _ => false end.
Definition cs_ninvb (c : connset) : bool :=
  forallb (fun p => match cs_get c p with
                    | None => true
                    | Some ps => ps_wfb ps && ps_numericb ps && negb (iempty (ps_ports ps))
                                 && negb (cs_all c)
                    end) all_protos
  && negb (cs_is_all_without_allowall c).

(* cs_ninv and cs_pre say the same of every stored port set ([ps_good]) and differ in what they say of the AllowAll flag *)
Definition opt_P (P : portset -> Prop) (m : option portset) : Prop :=
  forall ps, m = Some ps -> P ps.

Definition ps_good (ps : portset) : Prop := ps_wf ps /\ ps_numeric ps /\ ps_ports ps <> [].
Definition cs_good (c : connset) : Prop := forall p, opt_P ps_good (cs_get c p).

(* Which invariant is for what.  [cs_wf] is what the denotation theorems of the operations ask (Intersection's also
   that AllowAll stores nothing).  [cs_good] is what Union and Subtract ask of their argument to keep a canonical
   receiver canonical.  [cs_tidy], the common part of [cs_pre] and [cs_ninv], is what Subtract asks of its receiver to
   return a set of the same kind: Eval subtracts from rule sets, which may hold three full ranges without the
   AllowAll flag, and unites them into canonical sets.  [cs_pre] is kept by AddConnection from the empty set on;
   [cs_ninv] is the finished, canonical set. *)
Definition cs_tidy (c : connset) : Prop :=
  cs_good c /\ (cs_all c = true -> forall p, cs_get c p = None).

Lemma opt_P_none (P : portset -> Prop) : opt_P P None.
Proof. intros ps H. discriminate H. Qed.
Lemma opt_P_some (P : portset -> Prop) ps : P ps -> opt_P P (Some ps).
Proof. intros H x [= <-]. exact H. Qed.
Lemma opt_P_impl (P Q : portset -> Prop) m : (forall ps, P ps -> Q ps) -> opt_P P m -> opt_P Q m.
Proof. intros H Hm ps E. apply H. exact (Hm ps E). Qed.

Lemma cs_good_iff c :
  cs_good c <->
  cs_wf c /\ cs_numeric c /\ (forall p ps, cs_get c p = Some ps -> ps_ports ps <> []).
Proof.
  split.
  - intros H. split; [|split]; intros p ps E; apply (H p ps E).
  - intros (H1 & H2 & H3) p ps E. exact (conj (H1 p ps E) (conj (H2 p ps E) (H3 p ps E))).
Qed.

Lemma cs_ninv_iff c :
  cs_ninv c <-> cs_good c /\ (cs_all c = true -> forall p, cs_get c p = None) /\
                cs_is_all_without_allowall c = false.
Proof.
  unfold cs_ninv. split.
  - intros (H1 & H2 & H3 & H4 & H5). split; [apply cs_good_iff|]; auto.
  - intros ((H1 & H2 & H4)%cs_good_iff & H3 & H5). auto.
Qed.

Lemma cs_pre_iff c : cs_pre c <-> cs_all c = false /\ cs_good c.
Proof.
  unfold cs_pre. split.
  - intros (H1 & H2 & H3 & H4). split; [exact H3|apply cs_good_iff]; auto.
  - intros (H3 & (H1 & H2 & H4)%cs_good_iff). auto.
Qed.

Lemma cs_ninv_good c : cs_ninv c -> cs_good c.
Proof. intros H. apply cs_ninv_iff in H. apply H. Qed.
Lemma good_entry_wf m : opt_P ps_good m -> opt_P ps_wf m.
Proof. apply opt_P_impl. intros ps H. apply H. Qed.
Lemma cs_good_wf c : cs_good c -> cs_wf c.
Proof. intros H p. exact (good_entry_wf _ (H p)). Qed.
Lemma cs_ninv_wf c : cs_ninv c -> cs_wf c.
Proof. intros H; apply H. Qed.

Lemma cs_ninv_tidy c : cs_ninv c -> cs_tidy c.
Proof. intros H. apply cs_ninv_iff in H. split; apply H. Qed.
Lemma cs_pre_tidy c : cs_pre c -> cs_tidy c.
Proof. intros H. apply cs_pre_iff in H. destruct H as [Ha Hg]. split; [exact Hg|]. rewrite Ha. discriminate. Qed.
Lemma cs_tidy_wf c : cs_tidy c -> cs_wf c.
Proof. intros H. apply cs_good_wf, H. Qed.

Lemma forallb_protos (f : proto -> bool) : forallb f all_protos = true <-> forall p, f p = true.
Proof.
  split.
  - intros H p. apply (proj1 (forallb_forall f all_protos) H). destruct p; cbn; auto.
  - intros H. apply forallb_forall. intros p _. apply H.
Qed.

Lemma cs_get_map f c p : cs_get (cs_map f c) p = f p (cs_get c p).
Proof. destruct p; reflexivity. Qed.
Lemma cs_all_map f c : cs_all (cs_map f c) = cs_all c.
Proof. reflexivity. Qed.
Lemma cs_get_set c p v q : cs_get (cs_set c p v) q = if proto_eqb p q then v else cs_get c q.
Proof. destruct p, q; reflexivity. Qed.
Lemma cs_all_set c p v : cs_all (cs_set c p v) = cs_all c.
Proof. destruct p; reflexivity. Qed.
Lemma cs_get_make a p : cs_get (cs_make a) p = None.
Proof. destruct p; reflexivity. Qed.
Lemma cs_get_reflag b c p : cs_get (mkCS b (cs_tcp c) (cs_udp c) (cs_sctp c)) p = cs_get c p.
Proof. destruct p; reflexivity. Qed.
Lemma proto_eqb_eq p q : proto_eqb p q = true <-> p = q.
Proof. destruct p, q; split; (reflexivity || discriminate). Qed.
Lemma proto_eqb_refl p : proto_eqb p p = true.
Proof. destruct p; reflexivity. Qed.

Lemma cs_ext c o : cs_all c = cs_all o -> (forall p, cs_get c p = cs_get o p) -> c = o.
Proof.
  destruct c as [a t u s], o as [a' t' u' s']. intros Ha Hg.
  exact (f_equal4 mkCS Ha (Hg TCP) (Hg UDP) (Hg SCTP)).
Qed.

Lemma cs_len_zero c : Nat.eqb (cs_len c) 0 = true <-> forall p, cs_get c p = None.
Proof.
  split.
  - destruct c as [a [t|] [u|] [s|]]; try discriminate. intros _ [ | | ]; reflexivity.
  - intros H. destruct c as [a t u s].
    rewrite (H TCP : t = None), (H UDP : u = None), (H SCTP : s = None). reflexivity.
Qed.

Lemma cs_isempty_spec c :
  cs_isempty c = true <-> cs_all c = false /\ forall p, cs_get c p = None.
Proof.
  unfold cs_isempty. split.
  - intros [Ha Hl]%andb_true_iff. split; [apply negb_true_iff, Ha|apply cs_len_zero, Hl].
  - intros [Ha Hl]. rewrite Ha. apply cs_len_zero, Hl.
Qed.

Lemma cs_named_ports_props c :
  NoDup (map fst (cs_named_ports c)) /\
  forall pn, In pn (cs_named_ports c) -> exists ps, cs_get c (fst pn) = Some ps.
Proof.
  unfold cs_named_ports. split.
  - (* the protocols listed are those of all_protos that store a name, in that order *)
    set (F := fun p => match cs_get c p with
                       | Some ps => match ps_named ps with [] => [] | ns => [(p, ns)] end
                       | None => []
                       end).
    set (g := fun p => match F p with [] => false | _ => true end).
    assert (G : forall l, map fst (flat_map F l) = filter g l).
    { induction l as [|a t IH]; cbn [flat_map filter map]; [reflexivity|]. rewrite map_app, IH.
      unfold g, F. destruct (cs_get c a) as [ps|]; [destruct (ps_named ps)|]; reflexivity. }
    rewrite G. apply NoDup_filter. repeat constructor; cbn [In]; intuition discriminate.
  - intros pn H. apply in_flat_map in H. destruct H as (q & _ & H).
    destruct (cs_get c q) as [ps|] eqn:E; [|destruct H]. destruct (ps_named ps); [destruct H|].
    destruct H as [<-|[]]. exists ps. exact E.
Qed.

Lemma sset_mem_add x y s : sset_mem x (sset_add y s) = String.eqb x y || sset_mem x s.
Proof.
  induction s as [|z t IH]; cbn [sset_add sset_mem]; [reflexivity|].
  destruct (String.compare y z) eqn:E; cbn [sset_mem].
  - apply String.compare_eq_iff in E. subst z. destruct (String.eqb x y); reflexivity.
  - reflexivity.
  - rewrite IH. destruct (String.eqb x y), (String.eqb x z); reflexivity.
Qed.

(* the model has the membership test on string lists twice, with the same body *)
Lemma sset_mem_str_mem x s : sset_mem x s = World.str_mem x s.
Proof. reflexivity. Qed.

Lemma sset_mem_fold_add x l : forall s,
  sset_mem x (fold_left (fun acc k => sset_add k acc) l s) = sset_mem x s || World.str_mem x l.
Proof.
  induction l as [|y t IH]; intros s; cbn [fold_left World.str_mem]; [symmetry; apply orb_false_r|].
  rewrite IH, sset_mem_add. destruct (String.eqb x y), (sset_mem x s); reflexivity.
Qed.

Lemma sset_eqb_spec a b : sset_eqb a b = true <-> a = b.
Proof.
  revert b. induction a as [|x a IH]; intros [|y b]; cbn [sset_eqb];
    try (split; [discriminate|discriminate]).
  - split; reflexivity.
  - split.
    + intros [->%String.eqb_eq ->%IH]%andb_true_iff. reflexivity.
    + intros [= -> ->]. rewrite String.eqb_refl. apply IH. reflexivity.
Qed.

Lemma ps_equal_spec p o : ps_equal p o = true <-> p = o.
Proof.
  destruct p as [a1 a2 a3], o as [b1 b2 b3]. unfold ps_equal. cbn [ps_ports ps_named ps_excl]. split.
  - intros [[->%iset_eqb_spec ->%sset_eqb_spec]%andb_true_iff ->%sset_eqb_spec]%andb_true_iff.
    reflexivity.
  - intros [= -> -> ->].
    rewrite (proj2 (iset_eqb_spec b1 b1)), !(proj2 (sset_eqb_spec _ _) eq_refl); reflexivity.
Qed.

Lemma opt_ps_equal_spec a b : opt_ps_equal a b = true <-> a = b.
Proof.
  destruct a as [x|], b as [y|]; cbn [opt_ps_equal]; try (split; [discriminate|discriminate]).
  - split; [intros ->%ps_equal_spec; reflexivity|intros [= ->]; apply ps_equal_spec; reflexivity].
  - split; reflexivity.
Qed.

Lemma cs_struct_eqb_spec c o : cs_struct_eqb c o = true <-> c = o.
Proof.
  destruct c as [a t u s], o as [a' t' u' s']. unfold cs_struct_eqb.
  cbn [cs_all cs_tcp cs_udp cs_sctp]. split.
  - intros [[[->%eqb_prop ->%opt_ps_equal_spec]%andb_true_iff ->%opt_ps_equal_spec]%andb_true_iff
             ->%opt_ps_equal_spec]%andb_true_iff. reflexivity.
  - intros [= -> -> -> ->]. rewrite eqb_reflx, !(proj2 (opt_ps_equal_spec _ _) eq_refl). reflexivity.
Qed.

(* Go's Equal looks every protocol of c up in o and compares the numbers of protocols: every entry
   of c is an entry of o, and as both store equally many, o has none besides. *)
Definition stored (m : option portset) : nat := match m with Some _ => 1 | None => 0 end.

Lemma cs_len_sum c :
  cs_len c = (stored (cs_get c TCP) + stored (cs_get c UDP) + stored (cs_get c SCTP))%nat.
Proof. destruct c as [a [t|] [u|] [s|]]; reflexivity. Qed.

Lemma cs_equal_spec c o : cs_equal c o = true <-> c = o.
Proof.
  split.
  - unfold cs_equal. intros [[Ha Hl]%andb_true_iff He]%andb_true_iff.
    apply eqb_prop in Ha. apply Nat.eqb_eq in Hl. rewrite !cs_len_sum in Hl.
    assert (H : forall p, (stored (cs_get c p) <= stored (cs_get o p))%nat /\
                          (stored (cs_get c p) = stored (cs_get o p) -> cs_get c p = cs_get o p)).
    { intros p. generalize (proj1 (forallb_protos _) He p).
      destruct (cs_get c p) as [ps|], (cs_get o p) as [ops|]; cbn [stored]; try discriminate.
      - intros ->%ps_equal_spec. split; reflexivity.
      - split; [apply Nat.le_0_1|discriminate].
      - split; reflexivity. }
    destruct (H TCP) as [L1 E1], (H UDP) as [L2 E2], (H SCTP) as [L3 E3].
    apply cs_ext; [exact Ha|]. clear - Hl L1 L2 L3 E1 E2 E3.
    intros [ | | ]; [apply E1|apply E2|apply E3]; lia.
  - intros <-. unfold cs_equal. rewrite eqb_reflx, Nat.eqb_refl. cbn [andb].
    apply forallb_protos. intros p. destruct (cs_get c p) as [ps|]; [|reflexivity].
    apply ps_equal_spec. reflexivity.
Qed.

Lemma ps_wfb_spec ps : ps_wfb ps = true <-> ps_wf ps.
Proof. unfold ps_wfb, ps_wf. rewrite andb_true_iff, canonb_spec. reflexivity. Qed.

Lemma ps_numericb_spec ps : ps_numericb ps = true <-> ps_numeric ps.
Proof.
  unfold ps_numericb, ps_numeric. destruct (ps_named ps), (ps_excl ps);
    (split; [intros H|intros [H1 H2]]); (discriminate || auto).
Qed.

Lemma ps_good_iff_checks ps :
  ps_wfb ps && ps_numericb ps && negb (iempty (ps_ports ps)) = true <-> ps_good ps.
Proof.
  split.
  - intros [[Hw Hn]%andb_true_iff He]%andb_true_iff.
    split; [apply ps_wfb_spec, Hw|]. split; [apply ps_numericb_spec, Hn|apply iempty_false_iff, He].
  - intros (Hw%ps_wfb_spec & Hn%ps_numericb_spec & He%iempty_false_iff). rewrite Hw, Hn, He.
    reflexivity.
Qed.

Lemma cs_ninvb_spec c : cs_ninvb c = true <-> cs_ninv c.
Proof.
  unfold cs_ninvb. split.
  - intros [H Hn%negb_true_iff]%andb_true_iff. apply cs_ninv_iff.
    pose proof (proj1 (forallb_protos _) H) as He. split; [|split; [|exact Hn]].
    + intros p ps E. specialize (He p). cbv beta in He. rewrite E in He.
      apply andb_true_iff in He. apply ps_good_iff_checks, He.
    + intros Ha p. specialize (He p). cbv beta in He. destruct (cs_get c p); [|reflexivity].
      rewrite Ha, andb_false_r in He. discriminate He.
  - intros (Hg & Hnone & Hn)%cs_ninv_iff. rewrite Hn, andb_true_r. apply forallb_protos. intros p.
    destruct (cs_get c p) as [ps|] eqn:E; [|reflexivity].
    rewrite (proj2 (ps_good_iff_checks ps) (Hg p ps E)).
    destruct (cs_all c); [|reflexivity]. rewrite (Hnone eq_refl p) in E. discriminate E.
Qed.

Lemma valid_port_iff n : valid_port n = true <-> minPort <= n <= maxPort.
Proof. unfold valid_port. rewrite andb_true_iff, !Z.leb_le. reflexivity. Qed.
Lemma valid_port_not_noport n : valid_port n = true -> (n =? NoPort) = false.
Proof. intros H. apply valid_port_iff in H. apply Z.eqb_neq. unfold NoPort, minPort in *. lia. Qed.

Lemma ps_wf_iff ps :
  ps_wf ps <-> canon (ps_ports ps) /\ forall n, imem n (ps_ports ps) = true -> valid_port n = true.
Proof.
  unfold ps_wf. split; intros [Hc H]; (split; [exact Hc|]).
  - intros n Hn. apply valid_port_iff. exact (proj1 (withinb_spec _ _ _ Hc) H n Hn).
  - apply withinb_spec; [exact Hc|]. intros n Hn. apply valid_port_iff, H, Hn.
Qed.

Lemma ps_wf_mem_valid ps n : ps_wf ps -> imem n (ps_ports ps) = true -> valid_port n = true.
Proof. intros H. apply ps_wf_iff, H. Qed.

Lemma ps_make_wf all : ps_wf (ps_make all).
Proof.
  destruct all; (split; [|reflexivity]); [apply ifull_canon; discriminate|exact I].
Qed.
Lemma ps_make_numeric b : ps_numeric (ps_make b).
Proof. split; reflexivity. Qed.

Lemma ps_full_mem n : imem n (ps_ports (ps_make true)) = valid_port n.
Proof. apply ifull_mem. Qed.

Lemma ps_isall_iff ps : ps_isall ps = true <-> ps_ports ps = ifull minPort maxPort /\ ps_excl ps = [].
Proof.
  unfold ps_isall. rewrite andb_true_iff, iset_eqb_spec.
  destruct (ps_excl ps); split; intros [H1 H2]; (discriminate || auto).
Qed.
Lemma ps_isall_make : ps_isall (ps_make true) = true.
Proof. reflexivity. Qed.
Lemma ps_isall_spec ps : ps_named ps = [] -> (ps_isall ps = true <-> ps = ps_make true).
Proof.
  intros Hn. rewrite ps_isall_iff. split; [|intros ->; split; reflexivity].
  destruct ps as [pp nn ee]. cbn [ps_ports ps_named ps_excl] in *. intros [-> ->]. subst nn.
  reflexivity.
Qed.

Lemma ps_numeric_ext a b : ps_wf a -> ps_numeric a -> ps_wf b -> ps_numeric b ->
  (forall n, imem n (ps_ports a) = imem n (ps_ports b)) -> a = b.
Proof.
  destruct a as [pa na ea], b as [pb nb eb]. unfold ps_wf, ps_numeric. cbn [ps_ports ps_named ps_excl].
  intros [Ha _] [-> ->] [Hb _] [-> ->] Hext.
  rewrite (canon_ext pa pb Ha Hb Hext). reflexivity.
Qed.

Lemma ps_isempty_ports ps : ps_isempty ps = true -> ps_ports ps = [].
Proof.
  unfold ps_isempty. intros [H _]%andb_true_iff. destruct (ps_ports ps); [reflexivity|discriminate H].
Qed.

Lemma ps_notempty_numeric ps : ps_numeric ps -> ps_isempty ps = false -> ps_ports ps <> [].
Proof.
  intros [Hn _] H E. unfold ps_isempty in H. rewrite Hn, E in H. discriminate H.
Qed.

Lemma ps_union_ports p o n :
  imem n (ps_ports (ps_union p o)) = imem n (ps_ports p) || imem n (ps_ports o).
Proof. exact (iunion_mem _ _ n). Qed.
Lemma ps_union_wf p o : ps_wf p -> ps_wf o -> ps_wf (ps_union p o).
Proof.
  intros Hp Ho. apply ps_wf_iff. split; [apply iunion_canon, Hp|].
  intros n. rewrite ps_union_ports. intros [Hn|Hn]%orb_true_iff.
  - exact (ps_wf_mem_valid p n Hp Hn).
  - exact (ps_wf_mem_valid o n Ho Hn).
Qed.
Lemma ps_inter_ports p o n :
  ps_wf p -> imem n (ps_ports (ps_inter p o)) = imem n (ps_ports p) && imem n (ps_ports o).
Proof. intros [Hc _]. exact (iinter_mem _ _ n Hc). Qed.
Lemma ps_inter_wf p o : ps_wf p -> ps_wf (ps_inter p o).
Proof.
  intros Hp. apply ps_wf_iff. split; [apply iinter_canon, Hp|].
  intros n. rewrite ps_inter_ports by exact Hp. intros [Hn _]%andb_true_iff.
  exact (ps_wf_mem_valid p n Hp Hn).
Qed.
Lemma ps_subtract_ports p o n :
  ps_wf p -> imem n (ps_ports (ps_subtract p o)) = imem n (ps_ports p) && negb (imem n (ps_ports o)).
Proof. intros [Hc _]. exact (isub_mem _ _ n Hc). Qed.
Lemma ps_subtract_wf p o : ps_wf p -> ps_wf (ps_subtract p o).
Proof.
  intros Hp. apply ps_wf_iff. split; [apply isub_canon, Hp|].
  intros n. rewrite ps_subtract_ports by exact Hp. intros [Hn _]%andb_true_iff.
  exact (ps_wf_mem_valid p n Hp Hn).
Qed.
Lemma ps_add_range_ports p lo hi n :
  imem n (ps_ports (ps_add_range p lo hi)) = imem n (ps_ports p) || in_ivl n (lo, hi).
Proof. unfold ps_add_range. cbn [ps_ports]. rewrite iadd_ivl_mem. apply orb_comm. Qed.
Lemma ps_add_range_wf p lo hi :
  ps_wf p -> minPort <= lo -> hi <= maxPort -> ps_wf (ps_add_range p lo hi).
Proof.
  intros Hp Hlo Hhi. apply ps_wf_iff. split; [apply iadd_ivl_canon, Hp|].
  intros n. rewrite ps_add_range_ports. intros [Hn|Hn]%orb_true_iff.
  - exact (ps_wf_mem_valid p n Hp Hn).
  - apply in_ivl_iff in Hn. apply valid_port_iff. lia.
Qed.
Lemma ps_add_range_numeric p lo hi : ps_numeric p -> ps_numeric (ps_add_range p lo hi).
Proof. intros H. exact H. Qed.
Lemma ps_add_num_wf ps m : ps_wf ps -> valid_port m = true -> ps_wf (ps_add_num ps m).
Proof. intros H Hv. apply valid_port_iff in Hv. apply (ps_add_range_wf ps m m H); apply Hv. Qed.
Lemma ps_add_num_mem ps m n :
  ps_wf ps -> imem n (ps_ports (ps_add_num ps m)) = imem n (ps_ports ps) || (m =? n).
Proof.
  intros H. change (ps_add_num ps m) with (ps_add_range ps m m).
  rewrite (ps_add_range_ports ps m m n). f_equal.
  apply eq_true_iff_eq. rewrite in_ivl_iff, Z.eqb_eq. lia.
Qed.

Lemma ps_containedin_numeric p o :
  ps_named p = [] -> ps_containedin p o = isubset (ps_ports p) (ps_ports o).
Proof. intros H. unfold ps_containedin. rewrite H. apply andb_true_r. Qed.
Lemma ps_containedin_sound p o :
  ps_wf p -> ps_containedin p o = true ->
  forall n, imem n (ps_ports p) = true -> imem n (ps_ports o) = true.
Proof.
  intros [Hc _] [H _]%andb_true_iff. apply (isubset_spec _ _ Hc). exact H.
Qed.

Lemma ps_union_named a b nm :
  sset_mem nm (ps_named (ps_union a b)) = sset_mem nm (ps_named a) || sset_mem nm (ps_named b).
Proof.
  unfold ps_union. cbn [ps_named]. rewrite sset_mem_fold_add, (sset_mem_str_mem nm (ps_named b)).
  reflexivity.
Qed.

Lemma ps_union_numeric p o : ps_numeric p -> ps_numeric o -> ps_numeric (ps_union p o).
Proof.
  destruct p as [a1 a2 a3], o as [b1 b2 b3]. unfold ps_numeric. cbn [ps_named ps_excl].
  intros [-> ->] [-> ->]. split; reflexivity.
Qed.
Lemma ps_subtract_numeric p o : ps_numeric p -> ps_numeric o -> ps_numeric (ps_subtract p o).
Proof.
  destruct p as [a1 a2 a3], o as [b1 b2 b3]. unfold ps_numeric. cbn [ps_named ps_excl].
  intros [-> ->] [-> ->]. split; reflexivity.
Qed.

Lemma ps_good_member ps : ps_good ps -> exists x, imem x (ps_ports ps) = true /\ valid_port x = true.
Proof.
  intros (Hwf & _ & Hne). destruct (canon_inhabited _ (proj1 Hwf) Hne) as [x Hx].
  exists x. split; [exact Hx|exact (ps_wf_mem_valid ps x Hwf Hx)].
Qed.

Lemma ps_make_true_good : ps_good (ps_make true).
Proof. split; [apply ps_make_wf|]. split; [apply ps_make_numeric|discriminate]. Qed.

Lemma ps_union_good a b : ps_good a -> ps_wf b -> ps_numeric b -> ps_good (ps_union a b).
Proof.
  intros Ha Hwb Hnb. destruct (ps_good_member a Ha) as (x & Hx & _). destruct Ha as (Hw & Hn & _).
  split; [apply ps_union_wf; assumption|]. split; [apply ps_union_numeric; assumption|].
  apply (imem_nonempty _ x). rewrite ps_union_ports, Hx. reflexivity.
Qed.

Lemma ps_union_good_r a b : ps_wf a -> ps_numeric a -> ps_good b -> ps_good (ps_union a b).
Proof.
  intros Hwa Hna Hb. destruct (ps_good_member b Hb) as (x & Hx & _). destruct Hb as (Hw & Hn & _).
  split; [apply ps_union_wf; assumption|]. split; [apply ps_union_numeric; assumption|].
  apply (imem_nonempty _ x). rewrite ps_union_ports, Hx. apply orb_true_r.
Qed.

(* membership in one protocol's entry: Contains below the AllowAll test *)
Definition opt_mem (m : option portset) (n : Z) : bool :=
  match m with Some ps => imem n (ps_ports ps) | None => false end.
Lemma cs_denote_eq c p n :
  cs_denote c p n = valid_port n && (cs_all c || opt_mem (cs_get c p) n).
Proof.
  unfold cs_denote, cs_contains, opt_mem, ps_contains. destruct (cs_all c); reflexivity.
Qed.

Lemma opt_mem_valid m n : opt_P ps_wf m -> opt_mem m n = valid_port n && opt_mem m n.
Proof.
  intros Hm. destruct m as [ps|]; cbn [opt_mem]; [|symmetry; apply andb_false_r].
  destruct (imem n (ps_ports ps)) eqn:E; [|symmetry; apply andb_false_r].
  rewrite (ps_wf_mem_valid ps n (Hm ps eq_refl) E). reflexivity.
Qed.

Lemma contains_denote c p n : cs_wf c -> cs_all c = false -> cs_contains c p n = cs_denote c p n.
Proof.
  intros Hw Ha. rewrite cs_denote_eq, Ha. cbn [orb]. rewrite <- (opt_mem_valid _ n (Hw p)).
  unfold cs_contains. rewrite Ha. reflexivity.
Qed.

Lemma cs_denote_invalid c p n : valid_port n = false -> cs_denote c p n = false.
Proof. unfold cs_denote. intros ->. reflexivity. Qed.

Lemma cs_all_denote c p n : cs_all c = true -> cs_denote c p n = valid_port n.
Proof. intros H. rewrite cs_denote_eq, H. apply andb_true_r. Qed.

Lemma cs_isempty_denote c p n : cs_isempty c = true -> cs_denote c p n = false.
Proof.
  intros [Ha Hg]%cs_isempty_spec. rewrite cs_denote_eq, Ha, Hg. apply andb_false_r.
Qed.

Theorem cs_make_denote all p n : cs_denote (cs_make all) p n = valid_port n && all.
Proof.
  rewrite cs_denote_eq, cs_get_make. cbn [cs_make cs_all opt_mem]. rewrite orb_false_r. reflexivity.
Qed.
Lemma cs_make_false_denote p n : cs_denote (cs_make false) p n = false.
Proof. rewrite cs_make_denote. apply andb_false_r. Qed.

Lemma good_entry_ext m1 m2 :
  opt_P ps_good m1 -> opt_P ps_good m2 -> (forall n, opt_mem m1 n = opt_mem m2 n) -> m1 = m2.
Proof.
  intros H1 H2 Hext. destruct m1 as [a|], m2 as [b|]; [| | |reflexivity].
  - f_equal. destruct (H1 a eq_refl) as (Hwa & Hna & _), (H2 b eq_refl) as (Hwb & Hnb & _).
    exact (ps_numeric_ext a b Hwa Hna Hwb Hnb Hext).
  - destruct (ps_good_member a (H1 a eq_refl)) as (x & Hx & _).
    specialize (Hext x). cbn [opt_mem] in Hext. rewrite Hx in Hext. discriminate Hext.
  - destruct (ps_good_member b (H2 b eq_refl)) as (x & Hx & _).
    specialize (Hext x). cbn [opt_mem] in Hext. rewrite Hx in Hext. discriminate Hext.
Qed.

Lemma good_entry_full m :
  opt_P ps_good m -> (forall n, valid_port n = true -> opt_mem m n = true) -> m = Some (ps_make true).
Proof.
  intros Hm Hall. apply good_entry_ext; [exact Hm|apply opt_P_some, ps_make_true_good|].
  intros n. cbn [opt_mem]. rewrite ps_full_mem, (opt_mem_valid m n (good_entry_wf m Hm)).
  destruct (valid_port n) eqn:Hv; [exact (Hall n Hv)|reflexivity].
Qed.

(* iawa: cs_is_all_without_allowall, the three-full-ranges spelling of "all" that cs_check_all replaces by the flag *)
Lemma cs_iawa_gen c :
  cs_is_all_without_allowall c = true <->
  cs_all c = false /\ forall p, exists ps, cs_get c p = Some ps /\ ps_isall ps = true.
Proof.
  unfold cs_is_all_without_allowall. split.
  - intros [Ha%negb_true_iff H]%andb_true_iff. split; [exact Ha|]. intros p.
    generalize (proj1 (forallb_protos _) H p). destruct (cs_get c p) as [ps|]; [|discriminate].
    intros Hi. exists ps. split; [reflexivity|exact Hi].
  - intros [Ha H]. rewrite Ha. apply forallb_protos. intros p. destruct (H p) as (ps & -> & Hi).
    exact Hi.
Qed.

Lemma cs_iawa_intro c :
  cs_all c = false -> (forall p, cs_get c p = Some (ps_make true)) ->
  cs_is_all_without_allowall c = true.
Proof.
  intros Ha H. apply cs_iawa_gen. split; [exact Ha|]. intros p. exists (ps_make true).
  split; [apply H|reflexivity].
Qed.
Lemma cs_iawa_spec c :
  (forall p ps, cs_get c p = Some ps -> ps_named ps = []) ->
  (cs_is_all_without_allowall c = true <->
   cs_all c = false /\ forall p, cs_get c p = Some (ps_make true)).
Proof.
  intros Hnum. split; [|intros [Ha H]; apply cs_iawa_intro; assumption].
  intros [Ha H]%cs_iawa_gen. split; [exact Ha|]. intros p.
  destruct (H p) as (ps & E & Hi). rewrite E. f_equal. apply (ps_isall_spec ps (Hnum p ps E)), Hi.
Qed.

Lemma cs_good_ninv c :
  cs_good c -> cs_all c = false -> ~ (forall p, cs_get c p = Some (ps_make true)) -> cs_ninv c.
Proof.
  intros Hg Ha Hfull. apply cs_ninv_iff. split; [exact Hg|]. split; [rewrite Ha; discriminate|].
  destruct (cs_is_all_without_allowall c) eqn:E; [exfalso|reflexivity].
  apply Hfull, cs_iawa_spec; [|exact E]. intros p ps Eps. apply (Hg p ps Eps).
Qed.

(* the bodies of the loops of Union, Intersection and Subtract over the protocols of the receiver *)
Definition union_entry (mine other : option portset) : option portset :=
  match mine, other with
  | Some ps, Some ops => Some (ps_union ps ops)
  | Some ps, None => Some ps
  | None, other => other
  end.
Definition inter_entry (mine other : option portset) : option portset :=
  match mine with
  | None => None
  | Some ps =>
      match other with
      | None => None
      | Some ops => let r := ps_inter ps ops in if ps_isempty r then None else Some r
      end
  end.
Definition sub_entry (mine other : option portset) : option portset :=
  match mine, other with
  | Some ps, Some ops => if ps_containedin ps ops then None else Some (ps_subtract ps ops)
  | m, _ => m
  end.

Lemma cs_union_eq c o :
  cs_union c o =
  if cs_all c || cs_isempty o then c
  else if cs_all o then cs_make true
  else cs_check_all (cs_map (fun p mine => union_entry mine (cs_get o p)) c).
Proof. reflexivity. Qed.
Lemma cs_union_empty_r c : cs_union c (cs_make false) = c.
Proof. rewrite cs_union_eq. change (cs_isempty (cs_make false)) with true. rewrite orb_true_r. reflexivity. Qed.
Lemma cs_inter_eq c o :
  cs_inter c o =
  if cs_all o then c
  else if cs_all c then
    cs_map (fun p mine => match cs_get o p with Some x => Some x | None => mine end)
           (mkCS false (cs_tcp c) (cs_udp c) (cs_sctp c))
  else cs_map (fun p mine => inter_entry mine (cs_get o p)) c.
Proof. reflexivity. Qed.
Lemma cs_subtract_eq c o :
  cs_subtract c o =
  if cs_isempty o then c
  else if cs_all o then cs_make false
  else cs_map (fun p mine => sub_entry mine (cs_get o p))
         (if cs_all c
          then cs_add_all_conns (mkCS false (cs_tcp c) (cs_udp c) (cs_sctp c)) else c).
Proof. reflexivity. Qed.
Lemma cs_addconn_eq c p ps :
  cs_addconn c p ps = if ps_isempty ps then c else cs_set c p (union_entry (cs_get c p) (Some ps)).
Proof. unfold cs_addconn. destruct (ps_isempty ps), (cs_get c p); reflexivity. Qed.

Lemma union_entry_mem mine other n :
  opt_P ps_wf mine -> opt_mem (union_entry mine other) n = opt_mem mine n || opt_mem other n.
Proof.
  intros _. destruct mine as [ps|], other as [ops|]; cbn [union_entry opt_mem]; try reflexivity.
  - apply ps_union_ports.
  - symmetry. apply orb_false_r.
Qed.
Lemma union_entry_wf mine other :
  opt_P ps_wf mine -> opt_P ps_wf other -> opt_P ps_wf (union_entry mine other).
Proof.
  intros Hm Ho. destruct mine as [ps|], other as [ops|]; cbn [union_entry]; try assumption.
  apply opt_P_some, ps_union_wf; [exact (Hm ps eq_refl)|exact (Ho ops eq_refl)].
Qed.
Lemma union_entry_good mine other :
  opt_P ps_good mine -> opt_P ps_good other -> opt_P ps_good (union_entry mine other).
Proof.
  intros Hm Ho. destruct mine as [ps|], other as [ops|]; cbn [union_entry]; try assumption.
  destruct (Ho ops eq_refl) as (H1 & H2 & _).
  apply opt_P_some, ps_union_good; [exact (Hm ps eq_refl)|exact H1|exact H2].
Qed.

Lemma inter_entry_mem mine other n :
  opt_P ps_wf mine -> opt_mem (inter_entry mine other) n = opt_mem mine n && opt_mem other n.
Proof.
  intros Hm. destruct mine as [ps|]; cbn [inter_entry opt_mem]; [|reflexivity].
  destruct other as [ops|]; cbn [opt_mem]; [|symmetry; apply andb_false_r].
  cbv zeta. rewrite <- (ps_inter_ports ps ops n (Hm ps eq_refl)).
  destruct (ps_isempty (ps_inter ps ops)) eqn:E; cbn [opt_mem]; [|reflexivity].
  rewrite (ps_isempty_ports _ E). reflexivity.
Qed.
Lemma inter_entry_wf mine other : opt_P ps_wf mine -> opt_P ps_wf (inter_entry mine other).
Proof.
  intros Hm. destruct mine as [ps|], other as [ops|]; cbn [inter_entry]; try apply opt_P_none.
  destruct (ps_isempty (ps_inter ps ops)); [apply opt_P_none|].
  apply opt_P_some, ps_inter_wf. exact (Hm ps eq_refl).
Qed.
Lemma inter_entry_good mine other : opt_P ps_good mine -> opt_P ps_good (inter_entry mine other).
Proof.
  intros Hm. destruct mine as [ps|], other as [ops|]; cbn [inter_entry]; try apply opt_P_none.
  destruct (ps_isempty (ps_inter ps ops)) eqn:E; [apply opt_P_none|].
  destruct (Hm ps eq_refl) as (H1 & H2 & _). apply opt_P_some.
  split; [apply ps_inter_wf, H1|]. split; [exact H2|].
  exact (ps_notempty_numeric (ps_inter ps ops) H2 E).
Qed.
Lemma inter_entry_full mine other :
  opt_P ps_good mine -> inter_entry mine other = Some (ps_make true) -> mine = Some (ps_make true).
Proof.
  intros Hm H. apply (good_entry_full mine Hm). intros n Hv.
  assert (Hn : opt_mem (inter_entry mine other) n = true).
  { rewrite H. cbn [opt_mem]. rewrite ps_full_mem. exact Hv. }
  rewrite inter_entry_mem in Hn by exact (good_entry_wf _ Hm).
  apply andb_true_iff in Hn. apply Hn.
Qed.

Lemma sub_entry_mem mine other n :
  opt_P ps_wf mine -> opt_mem (sub_entry mine other) n = opt_mem mine n && negb (opt_mem other n).
Proof.
  intros Hm. destruct mine as [ps|], other as [ops|]; cbn [sub_entry opt_mem negb]; try reflexivity.
  - pose proof (Hm ps eq_refl) as Hwf.
    destruct (ps_containedin ps ops) eqn:E; cbn [opt_mem]; [|apply ps_subtract_ports, Hwf].
    destruct (imem n (ps_ports ps)) eqn:En; [|reflexivity].
    rewrite (ps_containedin_sound ps ops Hwf E n En). reflexivity.
  - symmetry. apply andb_true_r.
Qed.
Lemma sub_entry_wf mine other : opt_P ps_wf mine -> opt_P ps_wf (sub_entry mine other).
Proof.
  intros Hm. destruct mine as [ps|], other as [ops|]; cbn [sub_entry]; try exact Hm.
  destruct (ps_containedin ps ops); [apply opt_P_none|].
  apply opt_P_some, ps_subtract_wf. exact (Hm ps eq_refl).
Qed.
Lemma sub_entry_good mine other :
  opt_P ps_good mine -> opt_P ps_numeric other -> opt_P ps_good (sub_entry mine other).
Proof.
  intros Hm Ho. destruct mine as [ps|], other as [ops|]; cbn [sub_entry]; try exact Hm.
  destruct (ps_containedin ps ops) eqn:E; [apply opt_P_none|].
  destruct (Hm ps eq_refl) as (H1 & H2 & _). apply opt_P_some.
  split; [apply ps_subtract_wf, H1|].
  split; [apply ps_subtract_numeric; [exact H2|exact (Ho ops eq_refl)]|].
  (* not contained: the difference of the port lists is not empty *)
  rewrite (ps_containedin_numeric ps ops (proj1 H2)) in E. intros E2.
  unfold isubset in E. unfold ps_subtract in E2. cbn [ps_ports] in E2. rewrite E2 in E. discriminate E.
Qed.
Lemma sub_entry_full mine other :
  opt_P ps_wf mine -> opt_P ps_good other ->
  sub_entry mine other = Some (ps_make true) -> other = None.
Proof.
  intros Hm Ho H. destruct other as [ops|]; [exfalso|reflexivity].
  destruct (ps_good_member ops (Ho ops eq_refl)) as (x & Hx & Hv).
  assert (Hn : opt_mem (sub_entry mine (Some ops)) x = true).
  { rewrite H. cbn [opt_mem]. rewrite ps_full_mem. exact Hv. }
  rewrite sub_entry_mem in Hn by exact Hm. cbn [opt_mem] in Hn.
  rewrite Hx, andb_false_r in Hn. discriminate Hn.
Qed.

Theorem cs_make_wf all : cs_wf (cs_make all).
Proof. intros p ps. rewrite cs_get_make. discriminate. Qed.

Lemma cs_wf_map f c : (forall p, opt_P ps_wf (f p (cs_get c p))) -> cs_wf (cs_map f c).
Proof. intros H p ps. rewrite cs_get_map. apply H. Qed.

Lemma cs_check_all_denote c p n : cs_denote (cs_check_all c) p n = cs_denote c p n.
Proof.
  unfold cs_check_all. destruct (cs_is_all_without_allowall c) eqn:E; [|reflexivity].
  apply cs_iawa_gen in E. destruct E as [Ea Eg]. destruct (Eg p) as (ps & Eps & [Hi _]%ps_isall_iff).
  rewrite cs_make_denote, (cs_denote_eq c), Ea, Eps. cbn [opt_mem orb].
  rewrite Hi, ifull_mem. fold (valid_port n). destruct (valid_port n); reflexivity.
Qed.
Lemma cs_check_all_wf c : cs_wf c -> cs_wf (cs_check_all c).
Proof.
  intros H. unfold cs_check_all. destruct (cs_is_all_without_allowall c); [apply cs_make_wf|exact H].
Qed.

Theorem cs_union_denote c o p n :
  cs_wf c -> cs_wf o -> cs_denote (cs_union c o) p n = cs_denote c p n || cs_denote o p n.
Proof.
  intros Hc _. destruct (valid_port n) eqn:Hv; [|rewrite !cs_denote_invalid by exact Hv; reflexivity].
  rewrite cs_union_eq. destruct (cs_all c) eqn:Eac; cbn [orb].
  - rewrite (cs_all_denote c p n Eac), Hv. reflexivity.
  - destruct (cs_isempty o) eqn:Eeo; [rewrite (cs_isempty_denote o p n Eeo); symmetry; apply orb_false_r|].
    destruct (cs_all o) eqn:Eao.
    + rewrite cs_make_denote, (cs_all_denote o p n Eao), Hv. symmetry. apply orb_true_r.
    + rewrite cs_check_all_denote, !cs_denote_eq, cs_get_map, cs_all_map, Eac, Eao, Hv.
      apply union_entry_mem. exact (Hc p).
Qed.
Theorem cs_union_wf c o : cs_wf c -> cs_wf o -> cs_wf (cs_union c o).
Proof.
  intros Hc Ho. rewrite cs_union_eq.
  destruct (cs_all c || cs_isempty o); [exact Hc|].
  destruct (cs_all o); [apply cs_make_wf|].
  apply cs_check_all_wf, cs_wf_map. intros p.
  apply union_entry_wf; [exact (Hc p)|exact (Ho p)].
Qed.

Theorem cs_inter_denote c o p n :
  cs_wf c -> cs_wf o -> (cs_all c = true -> forall q, cs_get c q = None) ->
  cs_denote (cs_inter c o) p n = cs_denote c p n && cs_denote o p n.
Proof.
  intros Hc _ Hinv.
  destruct (valid_port n) eqn:Hv; [|rewrite !cs_denote_invalid by exact Hv; reflexivity].
  rewrite cs_inter_eq. destruct (cs_all o) eqn:Eao.
  - rewrite (cs_all_denote o p n Eao), Hv. symmetry. apply andb_true_r.
  - destruct (cs_all c) eqn:Eac.
    + rewrite (cs_all_denote c p n Eac), !cs_denote_eq, cs_get_map, cs_get_reflag, (Hinv eq_refl p), Eao, Hv.
      destruct (cs_get o p); reflexivity.
    + rewrite !cs_denote_eq, cs_get_map, cs_all_map, Eac, Eao, Hv.
      apply inter_entry_mem. exact (Hc p).
Qed.

(* Without its third hypothesis cs_inter_denote is false, for the mirror and for the Go code (AllowAll with a stale
   stored protocol, reachable by MakeConnectionSet(true) + AddConnection): *)
Lemma cs_inter_denote_stale_refuted :
  let c := mkCS true (Some (mkPS [(80, 80)] [] [])) None None in
  let o := mkCS false None (Some (mkPS [(53, 53)] [] [])) None in
  cs_wf c /\ cs_wf o /\
  cs_denote (cs_inter c o) TCP 80 = true /\ cs_denote c TCP 80 && cs_denote o TCP 80 = false.
Proof.
  assert (Hs : forall ps, ps_wfb ps = true -> opt_P ps_wf (Some ps)).
  { intros ps H. apply opt_P_some, ps_wfb_spec, H. }
  cbv zeta.
  split; [|split; [|split; reflexivity]]; intros [ | | ]; solve [apply Hs; reflexivity|apply opt_P_none].
Qed.

Theorem cs_inter_wf c o : cs_wf c -> cs_wf o -> cs_wf (cs_inter c o).
Proof.
  intros Hc Ho. rewrite cs_inter_eq.
  destruct (cs_all o); [exact Hc|]. destruct (cs_all c); apply cs_wf_map; intros p.
  - rewrite cs_get_reflag. destruct (cs_get o p) as [ops|] eqn:E; [|exact (Hc p)].
    apply opt_P_some. exact (Ho p ops E).
  - apply inter_entry_wf. exact (Hc p).
Qed.

Lemma cs_addconn_all c p ps : cs_all (cs_addconn c p ps) = cs_all c.
Proof. rewrite cs_addconn_eq. destruct (ps_isempty ps); [reflexivity|apply cs_all_set]. Qed.
Lemma cs_addconn_get c p ps q :
  ps_isempty ps = false ->
  cs_get (cs_addconn c p ps) q = if proto_eqb p q then union_entry (cs_get c p) (Some ps) else cs_get c q.
Proof. intros H. rewrite cs_addconn_eq, H. apply cs_get_set. Qed.
Lemma cs_add_all_all c : cs_all (cs_add_all_conns c) = cs_all c.
Proof.
  unfold cs_add_all_conns, all_protos. cbn [fold_left]. rewrite !cs_addconn_all. reflexivity.
Qed.
Lemma cs_add_all_get c q :
  cs_get (cs_add_all_conns c) q = union_entry (cs_get c q) (Some (ps_make true)).
Proof.
  unfold cs_add_all_conns, all_protos. cbn [fold_left].
  rewrite !cs_addconn_get by reflexivity. destruct q; reflexivity.
Qed.

Theorem cs_addconn_denote c p ps q n :
  cs_wf c -> ps_wf ps ->
  cs_denote (cs_addconn c p ps) q n =
  cs_denote c q n || (proto_eqb p q && imem n (ps_ports ps)).
Proof.
  intros Hc Hps. destruct (ps_isempty ps) eqn:Ee.
  - rewrite cs_addconn_eq, Ee, (ps_isempty_ports ps Ee), andb_false_r, orb_false_r. reflexivity.
  - rewrite !cs_denote_eq, cs_addconn_all, (cs_addconn_get c p ps q Ee).
    destruct (proto_eqb p q) eqn:Epq; cbn [andb]; [|rewrite orb_false_r; reflexivity].
    apply proto_eqb_eq in Epq. subst q. rewrite union_entry_mem by exact (Hc p). cbn [opt_mem].
    destruct (imem n (ps_ports ps)) eqn:En; [|rewrite !orb_false_r; reflexivity].
    rewrite (ps_wf_mem_valid ps n Hps En), !orb_true_r. reflexivity.
Qed.
Theorem cs_addconn_wf c p ps : cs_wf c -> ps_wf ps -> cs_wf (cs_addconn c p ps).
Proof.
  intros Hc Hps. destruct (ps_isempty ps) eqn:Ee; [rewrite cs_addconn_eq, Ee; exact Hc|].
  intros q. rewrite (cs_addconn_get c p ps q Ee). destruct (proto_eqb p q); [|exact (Hc q)].
  apply union_entry_wf; [exact (Hc p)|apply opt_P_some, Hps].
Qed.

Theorem cs_subtract_denote c o p n :
  cs_wf c -> cs_wf o ->
  cs_denote (cs_subtract c o) p n = cs_denote c p n && negb (cs_denote o p n).
Proof.
  intros Hc _. destruct (valid_port n) eqn:Hv; [|rewrite !cs_denote_invalid by exact Hv; reflexivity].
  rewrite cs_subtract_eq. destruct (cs_isempty o) eqn:Eeo.
  - rewrite (cs_isempty_denote o p n Eeo). symmetry. apply andb_true_r.
  - destruct (cs_all o) eqn:Eao.
    + rewrite cs_make_denote, (cs_all_denote o p n Eao), Hv. symmetry. apply andb_false_r.
    + rewrite !cs_denote_eq, cs_get_map, cs_all_map, Eao, Hv. cbn [andb orb].
      destruct (cs_all c) eqn:Eac.
      * (* every entry of the receiver has become the full range *)
        rewrite cs_add_all_all, cs_add_all_get, cs_get_reflag. cbn [cs_all orb].
        assert (Hw : opt_P ps_wf (union_entry (cs_get c p) (Some (ps_make true)))).
        { apply union_entry_wf; [exact (Hc p)|apply opt_P_some, ps_make_wf]. }
        rewrite sub_entry_mem, union_entry_mem by (exact Hw || exact (Hc p)).
        cbn [opt_mem]. rewrite ps_full_mem, Hv, orb_true_r. reflexivity.
      * rewrite Eac. apply sub_entry_mem. exact (Hc p).
Qed.
Theorem cs_subtract_wf c o : cs_wf c -> cs_wf o -> cs_wf (cs_subtract c o).
Proof.
  intros Hc _. rewrite cs_subtract_eq.
  destruct (cs_isempty o); [exact Hc|]. destruct (cs_all o); [apply cs_make_wf|].
  apply cs_wf_map. intros p. apply sub_entry_wf. destruct (cs_all c); [|exact (Hc p)].
  rewrite cs_add_all_get, cs_get_reflag.
  apply union_entry_wf; [exact (Hc p)|apply opt_P_some, ps_make_wf].
Qed.

Theorem cs_copy_eq c : cs_copy c = c.
Proof. reflexivity. Qed.

Theorem cs_containedin_sound c o :
  cs_wf c -> cs_wf o -> cs_containedin c o = true ->
  forall p n, cs_denote c p n = true -> cs_denote o p n = true.
Proof.
  intros Hc _ H p n. rewrite !cs_denote_eq. intros [Hv Hm]%andb_true_iff. rewrite Hv. cbn [andb].
  unfold cs_containedin in H. destruct (cs_all o); [reflexivity|].
  destruct (cs_all c); [discriminate H|]. cbn [orb] in *.
  rewrite forallb_protos in H. specialize (H p).
  destruct (cs_get c p) as [ps|] eqn:E1; [|discriminate Hm].
  destruct (cs_get o p) as [ops|]; [|discriminate H].
  exact (ps_containedin_sound ps ops (Hc p ps E1) H n Hm).
Qed.

Theorem cs_allowall_canonical c :
  cs_ninv c -> ((forall p n, valid_port n = true -> cs_denote c p n = true) <-> cs_all c = true).
Proof.
  intros (Hg & _ & Hi)%cs_ninv_iff. split.
  - intros Hall. destruct (cs_all c) eqn:Ea; [reflexivity|exfalso].
    rewrite cs_iawa_intro in Hi; [discriminate Hi|exact Ea|].
    intros p. apply (good_entry_full _ (Hg p)). intros n Hv.
    specialize (Hall p n Hv). rewrite cs_denote_eq, Ea, Hv in Hall. exact Hall.
  - intros Ha p n Hv. rewrite (cs_all_denote c p n Ha). exact Hv.
Qed.

(* the all-connections set has one form: a union never leaves the flag set beside stored protocols *)
Definition all_canon (c : connset) : Prop := cs_all c = true -> c = cs_make true.

Lemma all_canon_union c o : all_canon c -> all_canon (cs_union c o).
Proof.
  unfold all_canon. intros Hc. rewrite cs_union_eq. destruct (cs_all c) eqn:Eac; cbn [orb].
  - intros _. apply Hc. reflexivity.
  - destruct (cs_isempty o); [intros H; rewrite Eac in H; discriminate H|].
    destruct (cs_all o); [reflexivity|]. unfold cs_check_all.
    destruct (cs_is_all_without_allowall _); [reflexivity|]. rewrite cs_all_map, Eac. discriminate.
Qed.
Lemma fold_union_all_canon {A} (f : A -> connset) l : forall acc,
  all_canon acc -> all_canon (fold_left (fun a x => cs_union a (f x)) l acc).
Proof. induction l as [|x t IH]; intros acc H; cbn [fold_left]; [exact H|]. apply IH, all_canon_union, H. Qed.

Theorem cs_ninv_ext c o :
  cs_ninv c -> cs_ninv o -> (forall p n, cs_denote c p n = cs_denote o p n) -> c = o.
Proof.
  intros Hc Ho Hext.
  assert (Ha : cs_all c = cs_all o).
  { apply eq_true_iff_eq. rewrite <- (cs_allowall_canonical c Hc), <- (cs_allowall_canonical o Ho).
    split; intros H p n Hv; [rewrite <- Hext|rewrite Hext]; exact (H p n Hv). }
  apply cs_ninv_iff in Hc. destruct Hc as (Hgc & Hnc & _).
  apply cs_ninv_iff in Ho. destruct Ho as (Hgo & Hno & _).
  apply cs_ext; [exact Ha|]. intros p.
  destruct (cs_all c) eqn:Eac.
  - rewrite (Hnc eq_refl p), (Hno (eq_sym Ha) p). reflexivity.
  - apply good_entry_ext; [exact (Hgc p)|exact (Hgo p)|]. intros n.
    rewrite (opt_mem_valid _ n (cs_good_wf c Hgc p)), (opt_mem_valid _ n (cs_good_wf o Hgo p)).
    specialize (Hext p n). rewrite !cs_denote_eq, <- Ha, Eac in Hext. exact Hext.
Qed.

Lemma cs_nonempty_witness c :
  cs_ninv c -> cs_isempty c = false -> exists p n, cs_denote c p n = true.
Proof.
  intros Hg%cs_ninv_good He. destruct (cs_all c) eqn:Ea.
  - exists TCP, minPort. exact (cs_all_denote c TCP minPort Ea).
  - assert (Hs : exists p ps, cs_get c p = Some ps).
    { destruct (cs_get c TCP) as [ps|] eqn:E1; [exists TCP, ps; exact E1|].
      destruct (cs_get c UDP) as [ps|] eqn:E2; [exists UDP, ps; exact E2|].
      destruct (cs_get c SCTP) as [ps|] eqn:E3; [exists SCTP, ps; exact E3|].
      rewrite (proj2 (cs_isempty_spec c)) in He; [discriminate He|].
      split; [exact Ea|]. intros [ | | ]; assumption. }
    destruct Hs as (p & ps & E). destruct (ps_good_member ps (Hg p ps E)) as (x & Hx & Hv).
    exists p, x. rewrite cs_denote_eq, E, Hv. cbn [opt_mem]. rewrite Hx. apply orb_true_r.
Qed.

Theorem cs_isempty_iff c :
  cs_ninv c -> (cs_isempty c = true <-> forall p n, cs_denote c p n = false).
Proof.
  intros Hn. split.
  - intros H p n. exact (cs_isempty_denote c p n H).
  - intros H. destruct (cs_isempty c) eqn:E; [reflexivity|].
    destruct (cs_nonempty_witness c Hn E) as (p & n & Hd). rewrite H in Hd. discriminate Hd.
Qed.

Theorem cs_containedin_complete c o :
  cs_ninv c -> cs_ninv o ->
  (forall p n, cs_denote c p n = true -> cs_denote o p n = true) -> cs_containedin c o = true.
Proof.
  intros Hc Ho Hsub. unfold cs_containedin.
  destruct (cs_all o) eqn:Eao; [reflexivity|].
  destruct (cs_all c) eqn:Eac.
  - (* c is everything, so o is, and o is canonical *)
    rewrite <- Eao. apply (cs_allowall_canonical o Ho). intros p n Hv. apply Hsub.
    rewrite (cs_all_denote c p n Eac). exact Hv.
  - apply cs_ninv_good in Hc. apply forallb_protos. intros p.
    destruct (cs_get c p) as [ps|] eqn:E1; [|reflexivity].
    pose proof (Hc p ps E1) as Hgood. pose proof Hgood as (Hwf & Hnumeric & _).
    assert (Hm : forall n, imem n (ps_ports ps) = true -> opt_mem (cs_get o p) n = true).
    { intros n Hn. specialize (Hsub p n).
      rewrite !cs_denote_eq, Eac, Eao, E1, (ps_wf_mem_valid ps n Hwf Hn) in Hsub. exact (Hsub Hn). }
    destruct (cs_get o p) as [ops|].
    + rewrite (ps_containedin_numeric ps ops (proj1 Hnumeric)). exact (proj2 (isubset_spec _ _ (proj1 Hwf)) Hm).
    + destruct (ps_good_member ps Hgood) as (x & Hx & _). discriminate (Hm x Hx).
Qed.

Theorem cs_equal_iff_denote c o :
  cs_ninv c -> cs_ninv o ->
  (cs_equal c o = true <-> forall p n, cs_denote c p n = cs_denote o p n).
Proof.
  intros Hc Ho. rewrite cs_equal_spec.
  split; [intros -> p n; reflexivity|exact (cs_ninv_ext c o Hc Ho)].
Qed.

Theorem cs_make_ninv all : cs_ninv (cs_make all).
Proof.
  apply cs_ninv_iff. split; [|split; [|destruct all; reflexivity]].
  - intros p. rewrite cs_get_make. apply opt_P_none.
  - intros _ p. apply cs_get_make.
Qed.
Lemma ninv_all_is_make c :
  cs_ninv c -> (forall p n, valid_port n = true -> cs_denote c p n = true) -> c = cs_make true.
Proof.
  intros Hn Hall. apply cs_ninv_ext; [exact Hn|apply cs_make_ninv|]. intros p n.
  rewrite cs_make_denote, andb_true_r.
  destruct (valid_port n) eqn:Hv; [exact (Hall p n Hv)|exact (cs_denote_invalid c p n Hv)].
Qed.
Lemma cs_make_false_pre : cs_pre (cs_make false).
Proof.
  apply cs_pre_iff. split; [reflexivity|]. intros p. rewrite cs_get_make. apply opt_P_none.
Qed.

Lemma cs_check_all_ninv c : cs_good c -> cs_all c = false -> cs_ninv (cs_check_all c).
Proof.
  intros Hg Ha. unfold cs_check_all.
  destruct (cs_is_all_without_allowall c) eqn:E; [apply cs_make_ninv|].
  apply cs_ninv_iff. split; [exact Hg|]. split; [rewrite Ha; discriminate|exact E].
Qed.

Lemma cs_union_good_ninv c o : cs_ninv c -> cs_good o -> cs_ninv (cs_union c o).
Proof.
  intros Hc Hgo. rewrite cs_union_eq.
  destruct (cs_all c) eqn:Eac; cbn [orb]; [exact Hc|].
  destruct (cs_isempty o); [exact Hc|]. destruct (cs_all o); [apply cs_make_ninv|].
  apply cs_check_all_ninv; [|exact Eac].
  intros p. rewrite cs_get_map. apply union_entry_good; [exact (cs_ninv_good c Hc p)|exact (Hgo p)].
Qed.

Theorem cs_inter_ninv c o : cs_ninv c -> cs_ninv o -> cs_ninv (cs_inter c o).
Proof.
  intros Hc Ho. rewrite cs_inter_eq. destruct (cs_all o) eqn:Eao; [exact Hc|].
  apply cs_ninv_iff in Hc. destruct Hc as (Hgc & Hnc & Hic).
  destruct (cs_all c) eqn:Eac.
  - (* the receiver is the AllowAll value: the result is o *)
    match goal with |- cs_ninv ?r => replace r with o; [exact Ho|] end.
    apply cs_ext; [exact Eao|]. intros p.
    rewrite cs_get_map, cs_get_reflag, (Hnc eq_refl p). destruct (cs_get o p); reflexivity.
  - apply cs_good_ninv; [|exact Eac|].
    + intros p. rewrite cs_get_map. apply inter_entry_good, Hgc.
    + (* three full ranges in the result would be three full ranges in c *)
      intros Hfull. rewrite cs_iawa_intro in Hic; [discriminate Hic|exact Eac|].
      intros p. specialize (Hfull p). rewrite cs_get_map in Hfull.
      exact (inter_entry_full _ _ (Hgc p) Hfull).
Qed.

(* Subtract from an AllowAll receiver first stores the three full ranges (addAllConns) *)
Lemma sub_receiver_good c : cs_tidy c ->
  let c1 := if cs_all c then cs_add_all_conns (mkCS false (cs_tcp c) (cs_udp c) (cs_sctp c)) else c in
  cs_all c1 = false /\ cs_good c1.
Proof.
  intros [Hg Hnone]. cbv zeta. destruct (cs_all c) eqn:Ea; [|split; assumption].
  split; [rewrite cs_add_all_all; reflexivity|].
  intros p. rewrite cs_add_all_get, cs_get_reflag, (Hnone eq_refl p). apply opt_P_some, ps_make_true_good.
Qed.

Lemma cs_subtract_good_ninv c o : cs_ninv c -> cs_good o -> cs_ninv (cs_subtract c o).
Proof.
  intros Hc Hgo. rewrite cs_subtract_eq.
  destruct (cs_isempty o) eqn:Eeo; [exact Hc|]. destruct (cs_all o) eqn:Eao; [apply cs_make_ninv|].
  destruct (sub_receiver_good c (cs_ninv_tidy c Hc)) as [Ha1 Hg1].
  match goal with |- cs_ninv (cs_map _ ?x) => set (c1 := x) in * end.
  clearbody c1. apply cs_good_ninv; [|exact Ha1|].
  - intros p. rewrite cs_get_map. apply sub_entry_good; [exact (Hg1 p)|].
    exact (opt_P_impl _ _ _ (fun ps H => proj1 (proj2 H)) (Hgo p)).
  - (* three full ranges in the result would mean that nothing was taken away: o is empty *)
    intros Hfull. rewrite (proj2 (cs_isempty_spec o)) in Eeo; [discriminate Eeo|].
    split; [exact Eao|]. intros p. specialize (Hfull p). rewrite cs_get_map in Hfull.
    exact (sub_entry_full _ _ (cs_good_wf c1 Hg1 p) (Hgo p) Hfull).
Qed.

Theorem cs_subtract_ninv c o : cs_ninv c -> cs_ninv o -> cs_ninv (cs_subtract c o).
Proof. intros Hc Ho. exact (cs_subtract_good_ninv c o Hc (cs_ninv_good o Ho)). Qed.

Lemma cs_subtract_tidy c o : cs_tidy c -> cs_ninv o -> cs_tidy (cs_subtract c o).
Proof.
  intros Hc Ho. rewrite cs_subtract_eq.
  destruct (cs_isempty o); [exact Hc|].
  destruct (cs_all o); [apply cs_ninv_tidy, cs_make_ninv|].
  destruct (sub_receiver_good c Hc) as [Ha1 Hg1]. cbv zeta in Ha1, Hg1.
  split.
  - intros p. rewrite cs_get_map. apply sub_entry_good; [exact (Hg1 p)|].
    intros ps E. apply (cs_ninv_good o Ho p ps E).
  - rewrite cs_all_map, Ha1. discriminate.
Qed.

Theorem cs_addconn_pre c p ps :
  cs_pre c -> ps_wf ps -> ps_numeric ps -> cs_pre (cs_addconn c p ps).
Proof.
  intros [Ha Hg]%cs_pre_iff Hw Hn. apply cs_pre_iff.
  split; [rewrite cs_addconn_all; exact Ha|].
  destruct (ps_isempty ps) eqn:Ee; [rewrite cs_addconn_eq, Ee; exact Hg|].
  intros q. rewrite (cs_addconn_get c p ps q Ee). destruct (proto_eqb p q); [|exact (Hg q)].
  apply union_entry_good; [exact (Hg p)|]. apply opt_P_some.
  split; [exact Hw|]. split; [exact Hn|exact (ps_notempty_numeric ps Hn Ee)].
Qed.
