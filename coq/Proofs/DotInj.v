(* The dot output of `list` determines the report: the edge lines can be told from every other line of the graph (a
   quoted string followed by " -> "), so two printable reports with the same dot output have the same entries,
   whatever peer lists they were rendered with. *)
From Coq Require Import List Bool String Ascii Permutation.
From NP Require Import ConnSet Connlist Format FormatProofs Basics StrInj ConnInj RowInj.
Import ListNotations.
Open Scope string_scope.

Fixpoint after_q (s : string) : string :=
  match s with
  | EmptyString => EmptyString
  | String c t => if Ascii.eqb c """" then t else after_q t
  end.

(* tab, a quoted string, then " -> " *)
Definition is_edge (l : string) : bool :=
  match l with
  | String c1 (String c2 r) => Ascii.eqb c1 (ascii_of_nat 9) && Ascii.eqb c2 """" && prefix " -> " (after_q r)
  | _ => false
  end.

Lemma after_q_app a r : all_chars not_quote a = true -> after_q (a ++ String """" r) = r.
Proof.
  induction a as [|c a IH]; cbn; intros H; [reflexivity|].
  apply andb_true_iff in H. destruct H as [H1 H2]. unfold not_quote in H1.
  destruct (Ascii.eqb c """"); [discriminate|]. apply IH. exact H2.
Qed.

Lemma is_edge_quoted a R : all_chars not_quote a = true -> is_edge (tab ++ qq a ++ R) = prefix " -> " R.
Proof.
  intros H. unfold tab, qq. cbn [append]. rewrite append_assoc. cbn.
  exact (f_equal (prefix " -> ") (after_q_app a R H)).
Qed.

Definition dot_line (edge : bool) (l : string) : Prop := chars not_nl l /\ is_edge l = edge.

Lemma edge_line_ok r : row_ok r -> dot_line true (dot_edge_line r).
Proof.
  intros (S & D & C & _). split.
  - pose proof (chars_without plain nlc _ eq_refl S) as NS. pose proof (chars_without plain nlc _ eq_refl D) as ND.
    pose proof (chars_without conn_char nlc _ eq_refl C) as NC.
    unfold dot_edge_line, qq.
    repeat first [assumption|reflexivity|apply chars_app|destruct (String.leb (r_src r) (r_dst r)); reflexivity].
  - exact (is_edge_quoted (r_src r) _ (chars_without plain """" _ eq_refl S)).
Qed.

Lemma quoted_cells t a k1 b k2 c R :
  t ++ qq a ++ k1 ++ qq b ++ k2 ++ qq c ++ R
  = (t ++ """") ++ cells ["""" ++ k1 ++ """"; """" ++ k2 ++ """"; """"] [a; b; c] R.
Proof. unfold qq. cbn [cells]. rewrite !append_assoc. reflexivity. Qed.

Lemma edge_line_inj r r' : row_ok r -> row_ok r' -> dot_edge_line r = dot_edge_line r' -> r = r'.
Proof.
  intros Hr Hr' H. unfold dot_edge_line in H. rewrite !quoted_cells in H. apply append_inj_l in H.
  apply row_fields_inj.
  exact (proj1 (cells_inj [plain; plain; conn_char] ["""" ++ " -> " ++ """"; """" ++ " [label=" ++ """"; """"] _ _ _ _ eq_refl Hr Hr' H)).
Qed.

Definition dpeer_ok (p : dpeer) : Prop :=
  all_chars plain (dp_str p) = true /\ all_chars not_nl (dp_label p) = true /\ all_chars not_nl (dp_ns p) = true.

Lemma dot_lookup_ok ps s : Forall dpeer_ok ps -> all_chars plain s = true -> dpeer_ok (dot_lookup ps s).
Proof.
  intros Hps Hs. induction Hps as [|p ps Hp _ IH]; cbn [dot_lookup].
  - split; [exact Hs|]. split; [exact (chars_without plain nlc s eq_refl Hs)|reflexivity].
  - destruct (String.eqb (dp_str p) s); [exact Hp|exact IH].
Qed.

Lemma dedup_adj_incl (l : list string) : incl (dedup_adj l) l.
Proof.
  induction l as [|x l IH]; intros s H; [exact H|]. destruct l as [|y t]; [exact H|].
  cbn [dedup_adj] in H. destruct (String.eqb x y).
  - right. apply IH. exact H.
  - destruct H as [H|H]; [left; exact H|right; apply IH; exact H].
Qed.

Definition dot_visited (es : list rentry) (ps : list dpeer) : list dpeer :=
  map (dot_lookup ps) (dedup_adj (strsort (dot_strs es ps))).

Lemma visited_ok es ps : Forall entry_ok es -> Forall dpeer_ok ps -> Forall dpeer_ok (dot_visited es ps).
Proof.
  intros Hes Hps. unfold dot_visited. apply Forall_map, (incl_Forall (dedup_adj_incl _)).
  apply (Permutation_Forall (Permutation_sym (strsort_perm _))). unfold dot_strs. apply Forall_app. split.
  - apply Forall_flat_map. refine (Forall_impl _ _ Hes). intros e (S1 & D1 & _).
    repeat constructor; apply (dot_lookup_ok ps _ Hps), rpeer_str_plain; assumption.
  - apply Forall_map, (incl_Forall (incl_filter _ ps)). exact (Forall_impl _ (fun q Hq => dot_lookup_ok ps _ Hps (proj1 Hq)) Hps).
Qed.

Lemma d2u_not_nl s : all_chars not_nl s = true -> all_chars not_nl (dash_to_underscore s) = true.
Proof.
  induction s as [|c s IH]; cbn; intros H; [reflexivity|]. apply andb_true_iff in H. destruct H as [H1 H2].
  rewrite (IH H2). destruct (Ascii.eqb c "-"); [reflexivity|rewrite H1; reflexivity].
Qed.

Lemma peer_line_ok p : dpeer_ok p -> dot_line false (dot_peer_line p).
Proof.
  intros (H1 & H2 & H3). pose proof (chars_without plain nlc _ eq_refl H1) as N1. split.
  - unfold dot_peer_line, qq.
    repeat first [assumption|reflexivity|apply chars_app|destruct (dp_ext p); assumption|destruct (dp_ip p); reflexivity].
  - exact (is_edge_quoted (dp_str p) _ (chars_without plain """" _ eq_refl H1)).
Qed.

Lemma group_lines visited ns : Forall dpeer_ok visited -> all_chars not_nl ns = true ->
  Forall (dot_line false) (dot_ns_group visited ns).
Proof.
  intros Hv Hn. unfold dot_ns_group. apply Forall_app. split; [|apply Forall_app; split].
  - repeat constructor. unfold qq. repeat first [reflexivity|apply chars_app]. exact (d2u_not_nl _ Hn).
  - apply (Forall_image dpeer_ok _ (fun p => tab ++ dot_peer_line p) _ (filter (fun p => negb (dp_ext p) && String.eqb (dp_ns p) ns) visited));
      [|exact (incl_Forall (incl_filter _ _) Hv)|apply strsort_perm].
    intros p Hp. split; [exact (chars_app not_nl tab _ eq_refl (proj1 (peer_line_ok p Hp)))|reflexivity].
  - repeat constructor. unfold qq. repeat first [reflexivity|exact Hn|apply chars_app].
Qed.

Definition dot_pre (visited : list dpeer) : list string :=
  (["digraph {"] ++ flat_map (dot_ns_group visited) (dedup_adj (strsort (map dp_ns (filter (fun p => negb (dp_ext p)) visited))))
   ++ strsort (map dot_peer_line (filter dp_ext visited)))%list.

Lemma dot_render_shape visited edges : dot_render visited edges = join nl (dot_pre visited ++ edges ++ ["}"])%list.
Proof. unfold dot_render, dot_pre. rewrite <- !app_assoc. reflexivity. Qed.

Lemma pre_lines visited : Forall dpeer_ok visited -> Forall (dot_line false) (dot_pre visited).
Proof.
  intros Hv. unfold dot_pre. apply Forall_app. split; [|apply Forall_app; split].
  - repeat constructor.
  - apply Forall_flat_map, (incl_Forall (dedup_adj_incl _)).
    apply (Forall_image dpeer_ok _ dp_ns _ (filter (fun p => negb (dp_ext p)) visited));
      [|exact (incl_Forall (incl_filter _ _) Hv)|apply strsort_perm].
    intros p Hp. exact (group_lines visited (dp_ns p) Hv (proj2 (proj2 Hp))).
  - exact (Forall_image dpeer_ok _ dot_peer_line _ _ peer_line_ok (incl_Forall (incl_filter _ _) Hv) (strsort_perm _)).
Qed.

Lemma dot_lines_split pre edges : Forall (dot_line false) pre -> Forall (dot_line true) edges ->
  Forall (chars not_nl) (pre ++ edges ++ ["}"])%list /\ filter is_edge (pre ++ edges ++ ["}"])%list = edges.
Proof.
  intros Hp He. split.
  - rewrite !Forall_app. split; [exact (Forall_impl _ (fun l Hl => proj1 Hl) Hp)|].
    split; [exact (Forall_impl _ (fun l Hl => proj1 Hl) He)|repeat constructor].
  - rewrite !filter_app, (filter_none _ pre), (filter_all _ edges); [apply app_nil_r| |].
    + exact (Forall_impl _ (fun l Hl => proj2 Hl) He).
    + exact (Forall_impl _ (fun l Hl => proj2 Hl) Hp).
Qed.

Theorem list_dot_inj es es' ps ps' :
  Forall entry_ok es -> Forall entry_ok es' -> Forall dpeer_ok ps -> Forall dpeer_ok ps' ->
  list_dot es ps = list_dot es' ps' -> Permutation es es'.
Proof.
  intros Hes Hes' Hps Hps' H. unfold list_dot in H. rewrite !dot_render_shape in H.
  fold (dot_visited es ps) in H. fold (dot_visited es' ps') in H.
  set (f := fun e => dot_edge_line (row_of e)) in *.
  assert (G : forall q, Forall entry_ok q -> Forall (dot_line true) (strsort (map f q))).
  { intros q Hq. exact (Forall_image entry_ok _ f _ q (fun e He => edge_line_ok _ (row_of_ok e He)) Hq (strsort_perm _)). }
  destruct (dot_lines_split _ _ (pre_lines _ (visited_ok es ps Hes Hps)) (G es Hes)) as [L F].
  destruct (dot_lines_split _ _ (pre_lines _ (visited_ok es' ps' Hes' Hps')) (G es' Hes')) as [L' F'].
  apply (join_inj not_nl nl) in H; [|reflexivity|exact L|exact L'|discriminate|discriminate].
  apply (f_equal (filter is_edge)) in H. rewrite F, F' in H.
  apply (image_determines entry_ok f (strsort (map f es))); [|exact Hes|exact Hes'|apply strsort_perm|rewrite H; apply strsort_perm].
  intros e e' He He' E. apply (row_of_inj e e' He He'). exact (edge_line_inj _ _ (row_of_ok e He) (row_of_ok e' He') E).
Qed.

(* the check evaluates this on the peers list of every implementation result *)
Definition dpeer_printableb (p : dpeer) : bool :=
  all_chars plain (dp_str p) && all_chars not_nl (dp_label p) && all_chars not_nl (dp_ns p).

Lemma dpeers_printable ps : forallb dpeer_printableb ps = true -> Forall dpeer_ok ps.
Proof.
  apply forallb_Forall. intros p H. apply andb_prop in H. destruct H as [H H3]. apply andb_prop in H. destruct H as [H1 H2].
  exact (conj H1 (conj H2 H3)).
Qed.

(* codes: 7 an entry, 8 a peer of the peers list is outside the domain of list_dot_inj *)
Definition dot_printable_mismatches (cs : list dot_case) : list (nat * nat) :=
  flat_map (fun c =>
    ((if forallb entry_printableb (dc_entries c) then [] else [(dc_id c, 7%nat)]) ++
     (if forallb dpeer_printableb (dc_peers c) then [] else [(dc_id c, 8%nat)]))%list) cs.
