(* The txt output of `diff` (the default format) determines the diff as well.  The fields of a line are separated by
   ", " and a label, and a printed connection holds commas and blanks: but the labels that follow the two connections
   (dir2, workloads-diff-info) start with a letter that no printed connection holds. *)
From Coq Require Import List Bool String Ascii Permutation.
From NP Require Import ConnSet Diff Format StrInj ConnInj RowInj DiffInj.
Import ListNotations.
Open Scope string_scope.

Definition info_label : string := ", workloads-diff-info: ".
Definition info_tail (i : string) : string := if String.eqb i "" then "" else info_label ++ i.

Lemma info_tail_split c c' i i' X X' :
  chars conn_char c -> chars conn_char c' -> chars textc i -> chars textc i' ->
  c ++ info_tail i ++ nl ++ X = c' ++ info_tail i' ++ nl ++ X' -> c = c' /\ i = i' /\ X = X'.
Proof.
  intros C C' I I' H.
  (* both sides are a string without line break, then the line break: the left connection would hold the label *)
  assert (MIX : forall c c' i' Y Y', chars conn_char c -> chars conn_char c' -> chars textc i' ->
                c ++ nl ++ Y = c' ++ (info_label ++ i') ++ nl ++ Y' -> False).
  { clear. intros c c' i' Y Y' Hc Hc' Hi K. rewrite <- (append_assoc c') in K.
    pose proof (fun s => chars_without conn_char nlc s eq_refl) as NC.
    destruct (delimits not_nl nl eq_refl _ _ _ _ (NC _ Hc)
                (chars_app _ _ _ (NC _ Hc') (chars_app not_nl info_label _ eq_refl (chars_without textc nlc _ eq_refl Hi))) K) as [E _].
    exact (no_sep_inside conn_char info_label _ _ _ eq_refl Hc E). }
  unfold info_tail in H.
  destruct (String.eqb_spec i "") as [->|N], (String.eqb_spec i' "") as [->|N'].
  - destruct (delimits conn_char nl eq_refl _ _ _ _ C C' H) as [E EX]. repeat split; assumption.
  - destruct (MIX _ _ _ _ _ C C' I' H).
  - destruct (MIX _ _ _ _ _ C' C I (eq_sym H)).
  - rewrite !append_assoc in H. destruct (delimits conn_char info_label eq_refl _ _ _ _ C C' H) as [E H6].
    destruct (delimits textc nl eq_refl _ _ _ _ I I' H6) as [E6 EX]. repeat split; assumption.
Qed.

Lemma diff_txt_line_delimiting : self_delimiting drow_ok (fun r => diff_txt_line r ++ nl).
Proof.
  intros r r' X X' (T & S & D & C1 & C2 & I & _) (T' & S' & D' & C1' & C2' & I' & _) H.
  pose (seps := [", source: "; ", destination: "; ", dir1: "; ", dir2: "]).
  pose (front := fun q => [dr_type q; dr_src q; dr_dst q; dr_c1 q]).
  assert (Sh : forall q Y, (diff_txt_line q ++ nl) ++ Y
                           = "diff-type: " ++ cells seps (front q) ((dr_c2 q ++ info_tail (dr_info q)) ++ nl ++ Y)).
  { intros q Y. exact (eq_trans (append_assoc _ nl Y) (framed_app "diff-type: " seps (front q) _ (nl ++ Y))). }
  rewrite !Sh in H. apply append_inj_l in H.
  destruct (cells_inj [plain; plain; plain; conn_char] seps (front r) (front r') _ _ eq_refl
              (conj T (conj S (conj D (conj C1 Logic.I)))) (conj T' (conj S' (conj D' (conj C1' Logic.I)))) H) as [E H5].
  injection E as E1 E2 E3 E4. rewrite !append_assoc in H5.
  destruct (info_tail_split _ _ _ _ X X' C2 C2' I I' H5) as (E5 & E6 & EX). split; [|exact EX].
  apply drow_fields_inj. unfold drow_fields. rewrite E1, E2, E3, E4, E5, E6. reflexivity.
Qed.

Theorem diff_txt_inj d d' :
  Forall dentry_ok d -> Forall dentry_ok d' -> diff_txt d = diff_txt d' ->
  Permutation (filter changedb d) (filter changedb d').
Proof.
  intros Hd Hd'.
  apply (diff_text_determine diff_txt_line (fun a => a ++ nl) "Connectivity diff:" d d' diff_txt_line_delimiting);
    [discriminate|discriminate|intros a Ha; exact (append_nonempty a nl Ha)|intros a b; apply append_inj_r|exact Hd|exact Hd'].
Qed.

Corollary diff_txt_md_equivalent d d' : Forall dentry_ok d -> Forall dentry_ok d' ->
  (diff_txt d = diff_txt d' -> Permutation (filter changedb d) (filter changedb d')) /\
  (diff_md d = diff_md d' -> Permutation (filter changedb d) (filter changedb d')).
Proof. intros H H'. split; [apply diff_txt_inj|apply diff_md_inj]; assumption. Qed.
