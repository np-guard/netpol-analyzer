(* The printed form of a canonical connection set determines the set (common.ConnectionSet.String on the sets the
   analysis reports).  The string is cut at the commas into tokens ([toks]); a token that starts with the first letter
   of a protocol name opens the group of that protocol, the tokens made of digits and '-' continue it: so the tokens
   determine the port intervals of each protocol. *)
From Coq Require Import List ZArith Bool String Ascii Lia.
From NP Require Import IntervalSet ConnSet ConnSetProofs Basics StrInj.
Import ListNotations.
Open Scope string_scope.

Definition is_tok (c : ascii) : bool := is_digit c || Ascii.eqb c "-".
Lemma digit_tok c : is_digit c = true -> is_tok c = true.
Proof. intros H. unfold is_tok. rewrite H. reflexivity. Qed.
Lemma tok_comma : is_tok "," = false. Proof. reflexivity. Qed.

Definition ivl_ok (v : ivl) : Prop := (0 <= fst v /\ fst v <= snd v)%Z.

Lemma Z_str_tok z : (0 <= z)%Z -> chars is_tok (Z_str z).
Proof. intros H. exact (all_chars_weaken is_digit is_tok _ digit_tok (Z_str_digits z H)). Qed.

Lemma ivl_str_tok v : ivl_ok v -> all_chars is_tok (ivl_str v) = true.
Proof.
  intros [H1 H2]. unfold ivl_str. destruct (fst v =? snd v)%Z; [exact (Z_str_tok _ H1)|].
  rewrite !all_chars_app, (Z_str_tok _ H1), (Z_str_tok (snd v)) by lia. reflexivity.
Qed.

Lemma ivl_str_inj v w : ivl_ok v -> ivl_ok w -> ivl_str v = ivl_str w -> v = w.
Proof.
  intros [V1 V2] [W1 W2]. destruct v as [a b], w as [c d]. cbn [fst snd] in *. unfold ivl_str. cbn [fst snd].
  destruct (Z.eqb_spec a b) as [E1|E1], (Z.eqb_spec c d) as [E2|E2]; intros H.
  - subst. apply Z_str_inj in H; [subst; reflexivity|lia|lia].
  - exfalso. exact (no_sep_inside is_digit "-" _ _ _ eq_refl (Z_str_digits a V1) H).
  - exfalso. symmetry in H. exact (no_sep_inside is_digit "-" _ _ _ eq_refl (Z_str_digits c W1) H).
  - destruct (delimits is_digit "-" eq_refl _ _ _ _ (Z_str_digits a V1) (Z_str_digits c W1) H) as [H1 H2].
    apply Z_str_inj in H1; [|lia|lia]. apply Z_str_inj in H2; [|lia|lia]. subst. reflexivity.
Qed.

Lemma ivl_str_nonempty v : ivl_ok v -> ivl_str v <> "".
Proof.
  intros [H1 H2]. unfold ivl_str. destruct (fst v =? snd v)%Z; [|apply append_nonempty]; exact (Z_str_nonempty _ H1).
Qed.

Definition lead (s : string) : option ascii := match s with EmptyString => None | String c _ => Some c end.

Lemma all_chars_lead f s c : all_chars f s = true -> lead s = Some c -> f c = true.
Proof. destruct s as [|x s]; cbn [all_chars lead]; [discriminate|]. intros H [= <-]. apply andb_true_iff in H. tauto. Qed.

Lemma lead_join sep h t x : lead h = Some x -> lead (join sep (h :: t)) = Some x.
Proof. intros H. destruct t; [exact H|]. destruct h; [discriminate H|exact H]. Qed.

Lemma lb_canon_ok b s : (0 <= b)%Z -> lb_canon b s -> Forall ivl_ok s.
Proof.
  revert b. induction s as [|[l h] s IH]; intros b Hb H; [constructor|]. cbn in H. destruct H as (H1 & H2 & H3).
  constructor; [split; cbn; lia|]. apply (IH (h + 2)%Z); [lia|exact H3].
Qed.

Lemma ps_wf_ok ps : ps_wf ps -> Forall ivl_ok (ps_ports ps).
Proof.
  intros [Hc Hw]. destruct (ps_ports ps) as [|[l h] s] eqn:E; [constructor|].
  cbn in Hc. cbn in Hw. apply andb_true_iff in Hw. destruct Hw as [Hw _]. apply andb_true_iff in Hw. destruct Hw as [Hw _].
  apply (lb_canon_ok l); [unfold minPort in Hw; lia|exact Hc].
Qed.

Definition first_letter (p : proto) : ascii := match p with TCP => "T" | UDP => "U" | SCTP => "S" end%char.

Definition grp (c : connset) (p : proto) : list string :=
  match cs_get c p with
  | None => []
  | Some ps => match map ivl_str (ps_ports ps) with
               | [] => []
               | t :: ts => (proto_str p ++ " " ++ t) :: ts
               end
  end.
Definition toks (c : connset) : list string := (grp c SCTP ++ grp c TCP ++ grp c UDP)%list.

Lemma grp_cases c p : cs_ninv c ->
  (cs_get c p = None /\ grp c p = []) \/
  (exists v s, cs_get c p = Some (mkPS (v :: s) [] []) /\ Forall ivl_ok (v :: s) /\
               grp c p = (proto_str p ++ " " ++ ivl_str v) :: map ivl_str s).
Proof.
  intros (Hw & Hn & _ & He & _). unfold grp. destruct (cs_get c p) as [ps|] eqn:E; [right|left; split; reflexivity].
  pose proof (ps_wf_ok ps (Hw p ps E)) as Ok. destruct (Hn p ps E) as [N1 N2]. pose proof (He p ps E) as Ne.
  destruct ps as [[|v s] named excl]; cbn [ps_ports ps_named ps_excl] in *; [congruence|].
  subst. exists v, s. repeat split. exact Ok.
Qed.

Definition grp_shape (x : ascii) (g : list string) : Prop :=
  g = [] \/ exists h t, g = h :: t /\ lead h = Some x /\ Forall (chars is_tok) t.

Lemma grp_has_shape c p : cs_ninv c -> grp_shape (first_letter p) (grp c p).
Proof.
  intros Hn. destruct (grp_cases c p Hn) as [[_ ->]|(v & s & _ & Ok & ->)]; [left; reflexivity|right].
  eexists. eexists. split; [reflexivity|]. split; [destruct p; reflexivity|].
  apply Forall_map. exact (Forall_impl _ ivl_str_tok (Forall_inv_tail Ok)).
Qed.

(* where a run of elements of P ends: at the end of the list or before an element outside P *)
Definition stops {A} (P : A -> Prop) (r : list A) : Prop := match r with [] => True | x :: _ => ~ P x end.

Lemma stops_app {A} (P : A -> Prop) a b : stops P a -> stops P b -> stops P (a ++ b)%list.
Proof. destruct a; cbn; tauto. Qed.

Lemma stops_weaken {A} (P Q : A -> Prop) r : (forall x, P x -> Q x) -> stops Q r -> stops P r.
Proof. destruct r; cbn; auto. Qed.

Lemma span_unique {A} (P : A -> Prop) (t t' r r' : list A) :
  Forall P t -> Forall P t' -> stops P r -> stops P r' -> (t ++ r = t' ++ r')%list -> t = t' /\ r = r'.
Proof.
  intros Ht. revert t'. induction Ht as [|x t Px _ IH]; intros t' Ht' Hr Hr' H; destruct Ht' as [|x' t' Px' Ht']; cbn [app] in H.
  - split; [reflexivity|exact H].
  - exfalso. subst r. exact (Hr Px').
  - exfalso. subst r'. exact (Hr' Px).
  - injection H as -> H. destruct (IH t' Ht' Hr Hr' H) as [-> ->]. split; reflexivity.
Qed.

(* the tokens that may come next in the group of the protocol with first letter x *)
Definition continues (x : ascii) (s : string) : Prop := chars is_tok s \/ lead s = Some x.

Lemma grp_stops c p x : cs_ninv c -> first_letter p <> x -> stops (continues x) (grp c p).
Proof.
  intros Hw Hx. destruct (grp_has_shape c p Hw) as [->|(h & t & -> & L & _)]; [exact I|].
  intros [T|L']; [|congruence]. pose proof (all_chars_lead is_tok h _ T L) as K. destruct p; discriminate K.
Qed.

Lemma grp_split (x : ascii) (g g' r r' : list string) :
  grp_shape x g -> grp_shape x g' -> stops (continues x) r -> stops (continues x) r' ->
  (g ++ r = g' ++ r')%list -> g = g' /\ r = r'.
Proof.
  intros Hg Hg' Hr Hr' H.
  destruct Hg as [->|(h & t & -> & L & T)], Hg' as [->|(h' & t' & -> & L' & T')]; cbn [app] in H.
  - split; [reflexivity|exact H].
  - exfalso. subst r. exact (Hr (or_intror L')).
  - exfalso. subst r'. exact (Hr' (or_intror L)).
  - injection H as -> H.
    destruct (span_unique (chars is_tok) t t' r r' T T') as [-> ->]; [| |exact H|split; reflexivity];
      apply (stops_weaken _ (continues x)); try assumption; intros s Hs; left; exact Hs.
Qed.

Lemma toks_inj_groups c o : cs_ninv c -> cs_ninv o -> toks c = toks o -> forall p, grp c p = grp o p.
Proof.
  intros Hc Ho H. unfold toks in H.
  assert (R1 : forall q, cs_ninv q -> stops (continues "S") (grp q TCP ++ grp q UDP)).
  { intros q Hq. apply stops_app; apply grp_stops; trivial; discriminate. }
  assert (R2 : forall q, cs_ninv q -> stops (continues "T") (grp q UDP)).
  { intros q Hq. apply grp_stops; trivial; discriminate. }
  destruct (grp_split "S" _ _ _ _ (grp_has_shape c SCTP Hc) (grp_has_shape o SCTP Ho) (R1 c Hc) (R1 o Ho) H) as [ES H2].
  destruct (grp_split "T" _ _ _ _ (grp_has_shape c TCP Hc) (grp_has_shape o TCP Ho) (R2 c Hc) (R2 o Ho) H2) as [ET EU].
  intros [| |]; assumption.
Qed.

Lemma grp_inj c o p : cs_ninv c -> cs_ninv o -> grp c p = grp o p -> cs_get c p = cs_get o p.
Proof.
  intros Hc Ho H.
  destruct (grp_cases c p Hc) as [[E G]|(v & s & E & Ok & G)], (grp_cases o p Ho) as [[E' G']|(w & u & E' & Ok' & G')];
    rewrite E, E'; rewrite G, G' in H; [reflexivity|discriminate H|discriminate H|].
  injection H as H1 H2. apply append_inj_l in H1. injection H1 as H1.
  assert (K : map ivl_str (v :: s) = map ivl_str (w :: u)) by (cbn [map]; rewrite H1, H2; reflexivity).
  apply (map_inj_on ivl_str ivl_ok) in K; [rewrite K; reflexivity|exact ivl_str_inj|exact Ok|exact Ok'].
Qed.

Definition not_comma (ch : ascii) : bool := negb (Ascii.eqb ch ",").

(* what a printed connection set can hold: in particular no line break, quote, '|' or ';' *)
Definition conn_char (ch : ascii) : bool :=
  is_tok ch || Ascii.eqb ch "," || Ascii.eqb ch " "
  || match ch with "A" | "l" | "C" | "o" | "n" | "e" | "c" | "t" | "i" | "s" | "N" | "S" | "T" | "P" | "U" | "D" => true | _ => false end%char.

Lemma toks_chars f c :
  cs_ninv c -> (forall ch, is_tok ch = true -> f ch = true) -> (forall p, chars f (proto_str p ++ " ")) -> Forall (chars f) (toks c).
Proof.
  intros Hn Hf Hp.
  assert (G : forall p, Forall (chars f) (grp c p)).
  { intros p. destruct (grp_cases c p Hn) as [[_ ->]|(v & s & _ & Ok & ->)]; [constructor|].
    pose proof (fun w Hw => all_chars_weaken is_tok f _ Hf (ivl_str_tok w Hw)) as T.
    inversion Ok as [|? ? Hv Hs]; subst. constructor.
    - rewrite <- append_assoc. exact (chars_app _ _ _ (Hp p) (T v Hv)).
    - apply Forall_map. exact (Forall_impl _ T Hs). }
  unfold toks. rewrite !Forall_app. repeat split; apply G.
Qed.

Lemma toks_not_comma c : cs_ninv c -> Forall (chars not_comma) (toks c).
Proof. intros Hn. apply toks_chars; [exact Hn|exact (all_but is_tok "," tok_comma)|intros [| |]; reflexivity]. Qed.

Lemma join_prefix sep x t ts : x ++ join sep (t :: ts) = join sep ((x ++ t) :: ts).
Proof. destruct ts as [|u ts]; [reflexivity|]. rewrite !join_cons, append_assoc. reflexivity. Qed.

Lemma piece_join c p : cs_ninv c ->
  match cs_get c p with Some ps => [proto_str p ++ " " ++ ps_string ps] | None => [] end
  = match grp c p with [] => [] | _ => [join "," (grp c p)] end.
Proof.
  intros Hn. destruct (grp_cases c p Hn) as [[-> ->]|(v & s & -> & _ & ->)]; [reflexivity|].
  unfold ps_string, iset_str. cbn [ps_named ps_ports map]. rewrite <- !join_prefix. reflexivity.
Qed.

Lemma cs_string_toks c :
  cs_ninv c -> cs_all c = false -> cs_isempty c = false -> cs_string c = join "," (toks c).
Proof.
  intros Hn Ha He. unfold cs_string. rewrite Ha, He. cbn [flat_map]. rewrite app_nil_r, !(piece_join c) by exact Hn.
  unfold toks. destruct (grp c SCTP), (grp c TCP), (grp c UDP); cbv beta iota;
    rewrite ?app_nil_l, ?app_nil_r, ?join_app_ne by (cbn [app]; discriminate); reflexivity.
Qed.

Lemma toks_nil c : cs_ninv c -> toks c = [] -> forall p, cs_get c p = None.
Proof.
  intros Hn H p. destruct (grp_cases c p Hn) as [[E _]|(v & s & _ & _ & G)]; [exact E|exfalso]. unfold toks in H.
  apply app_eq_nil in H. destruct H as [H1 H]. apply app_eq_nil in H. destruct H as [H2 H3]. destruct p; congruence.
Qed.

Lemma toks_head c : cs_ninv c -> toks c = [] \/ exists p h t, toks c = h :: t /\ lead h = Some (first_letter p).
Proof.
  intros Hw. unfold toks.
  destruct (grp_has_shape c SCTP Hw) as [->|(h & t & -> & L & _)]; [|right; exists SCTP, h; eexists; split; [reflexivity|exact L]].
  destruct (grp_has_shape c TCP Hw) as [->|(h & t & -> & L & _)]; [|right; exists TCP, h; eexists; split; [reflexivity|exact L]].
  destruct (grp_has_shape c UDP Hw) as [->|(h & t & -> & L & _)]; [|right; exists UDP, h; eexists; split; [reflexivity|exact L]].
  left. reflexivity.
Qed.

Lemma empty_gets c : cs_all c = false -> cs_isempty c = true -> forall p, cs_get c p = None.
Proof.
  intros Ha He. unfold cs_isempty, cs_len in He. rewrite Ha in He. cbn [all_protos filter negb andb] in He.
  destruct (cs_get c TCP) eqn:E1, (cs_get c UDP) eqn:E2, (cs_get c SCTP) eqn:E3; cbn in He; try discriminate He.
  intros [| |]; assumption.
Qed.

(* begins with the first letter of a protocol name, as neither "All Connections" nor "No Connections" does *)
Definition starts_with_proto (s : string) : Prop := exists p, lead s = Some (first_letter p).

Lemma cs_string_shape c : cs_ninv c ->
  (cs_all c = true /\ cs_string c = allConnsStr) \/
  (cs_all c = false /\ (forall p, cs_get c p = None) /\ cs_string c = noConnsStr) \/
  (cs_all c = false /\ toks c <> [] /\ starts_with_proto (cs_string c) /\ cs_string c = join "," (toks c)).
Proof.
  intros Hn. destruct (cs_all c) eqn:Ac; [left; unfold cs_string; rewrite Ac; split; reflexivity|right].
  destruct (toks_head c Hn) as [T|(p & h & t & T & L)].
  - left. pose proof (toks_nil c Hn T) as G. split; [reflexivity|]. split; [exact G|].
    unfold cs_string, cs_isempty, cs_len. cbn [all_protos filter]. rewrite Ac, (G TCP), (G UDP), (G SCTP). reflexivity.
  - right. assert (Ec : cs_isempty c = false).
    { destruct (cs_isempty c) eqn:Ec; [exfalso|reflexivity]. pose proof (empty_gets c Ac Ec) as G.
      unfold toks, grp in T. rewrite (G SCTP), (G TCP), (G UDP) in T. discriminate T. }
    rewrite (cs_string_toks c Hn Ac Ec), T. split; [reflexivity|]. split; [discriminate|]. split; [|reflexivity].
    exists p. exact (lead_join _ _ _ _ L).
Qed.

Theorem cs_string_inj c o : cs_ninv c -> cs_ninv o -> cs_string c = cs_string o -> c = o.
Proof.
  intros Hc Ho H.
  assert (NotAll : ~ starts_with_proto allConnsStr) by (intros ([| |] & L); discriminate).
  assert (NotNone : ~ starts_with_proto noConnsStr) by (intros ([| |] & L); discriminate).
  destruct (cs_string_shape c Hc) as [[Ac Sc]|[(Ac & Gc & Sc)|(Ac & Tc & Lc & Sc)]],
           (cs_string_shape o Ho) as [[Ao So]|[(Ao & Go & So)|(Ao & To & Lo & So)]].
  - apply cs_ext; [congruence|]. intros p. destruct Hc as (_ & _ & N1 & _), Ho as (_ & _ & N2 & _).
    rewrite (N1 Ac p), (N2 Ao p). reflexivity.
  - exfalso. rewrite Sc, So in H. discriminate H.
  - exfalso. apply NotAll. rewrite <- Sc, H. exact Lo.
  - exfalso. rewrite Sc, So in H. discriminate H.
  - apply cs_ext; [congruence|]. intros p. rewrite (Gc p), (Go p). reflexivity.
  - exfalso. apply NotNone. rewrite <- Sc, H. exact Lo.
  - exfalso. apply NotAll. rewrite <- So, <- H. exact Lc.
  - exfalso. apply NotNone. rewrite <- So, <- H. exact Lc.
  - rewrite Sc, So in H.
    apply (join_inj not_comma) in H; [|reflexivity|exact (toks_not_comma c Hc)|exact (toks_not_comma o Ho)|exact Tc|exact To].
    apply cs_ext; [congruence|]. intros p. apply grp_inj; [exact Hc|exact Ho|].
    apply toks_inj_groups; assumption.
Qed.

Lemma cs_string_chars c : cs_ninv c -> all_chars conn_char (cs_string c) = true.
Proof.
  intros Hn. destruct (cs_string_shape c Hn) as [[_ S]|[(_ & _ & S)|(_ & _ & _ & S)]]; rewrite S; [reflexivity|reflexivity|].
  apply chars_join; [reflexivity|]. apply toks_chars; [exact Hn| |intros [| |]; reflexivity].
  intros ch H. unfold conn_char. rewrite H. reflexivity.
Qed.

Lemma cs_string_nonempty c : cs_ninv c -> cs_string c <> "".
Proof.
  intros Hn E. destruct (cs_string_shape c Hn) as [[_ S]|[(_ & _ & S)|(_ & _ & ([| |] & L) & _)]];
    rewrite E in *; discriminate.
Qed.
