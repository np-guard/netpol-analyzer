(* The verdict cache of the PolicyEngine never changes an answer: along any history every cache entry equals what a
   cache-less evaluation on the current objects returns (invariant [Inv]), hence every query answer equals the fresh
   answer (C15).  The cache is keyed by owner (namespace, owner name, labels).  That such a key decides the verdict
   rests on the point evaluation reading a pod only through its namespace, labels and container ports, which the [_vw]
   lemmas at the head say function by function ([vw]: a peer seen through these; ReexpressProofs.v says the same of
   the semantics, for C17), and on the engine's own assumption that the pods of one owner have the same ports
   ([uniform]).  At the end, [anp_insert_order_irrelevant]: the engine's list of admin policies does not depend on the
   order of insertion. *)
From Coq Require Import List ZArith Bool String Permutation.
From NP Require Import ConnSet ConnSetProofs World Eval EvalPoint Build EvalCase Engine Basics AbstractSort.
Import ListNotations.
Open Scope list_scope.
Open Scope Z_scope.

(* evaluation looks at a pod only through namespace, labels and container ports *)
Definition view (p : pod) : pod := mkPod (p_ns p) EmptyString (p_labels p) (p_ports p) EmptyString EmptyString false.
Definition vw (x : peer) : peer := match x with PPod p l => PPod (view p) l | PIP b => PIP b end.

Lemma if_vw (b : bool) x y : (if b then vw x else vw y) = vw (if b then x else y).
Proof. destruct b; reflexivity. Qed.

Lemma np_peers_select_vw npns peers x : np_peers_select npns peers (vw x) = np_peers_select npns peers x.
Proof.
  destruct x as [p l|b]; [|reflexivity].
  induction peers as [|pr t IH]; cbn [np_peers_select vw] in *; [reflexivity|]. rewrite IH. reflexivity.
Qed.

Lemma np_rule_selects_vw npns peers x : np_rule_selects npns peers (vw x) = np_rule_selects npns peers x.
Proof. unfold np_rule_selects. destruct peers; [reflexivity | apply np_peers_select_vw]. Qed.

Lemma get_ports_range_vw pp x : get_ports_range pp (vw x) = get_ports_range pp x.
Proof. destruct x; reflexivity. Qed.

Lemma np_ports_contain_vw ports x pr n : np_ports_contain ports (vw x) pr n = np_ports_contain ports x pr n.
Proof.
  induction ports as [|pp t IH]; cbn [np_ports_contain]; [reflexivity|].
  rewrite get_ports_range_vw, IH. reflexivity.
Qed.

Lemma np_rule_contains_vw ports x pr n : np_rule_contains ports (vw x) pr n = np_rule_contains ports x pr n.
Proof. unfold np_rule_contains. destruct ports; [reflexivity | apply np_ports_contain_vw]. Qed.

Lemma np_rules_allow_vw npns rules o d pr n :
  np_rules_allow npns rules (vw o) (vw d) pr n = np_rules_allow npns rules o d pr n.
Proof.
  induction rules as [|r t IH]; cbn [np_rules_allow]; [reflexivity|].
  rewrite np_rule_selects_vw, np_rule_contains_vw, IH. reflexivity.
Qed.

Lemma np_policy_allows_vw np s d ing pr n :
  np_policy_allows np (vw s) (vw d) ing pr n = np_policy_allows np s d ing pr n.
Proof. unfold np_policy_allows. destruct ing; apply np_rules_allow_vw. Qed.

Lemma nps_allow_vw sel s d ing pr n : nps_allow sel (vw s) (vw d) ing pr n = nps_allow sel s d ing pr n.
Proof.
  induction sel as [|np t IH]; cbn [nps_allow]; [reflexivity|].
  rewrite np_policy_allows_vw, IH. reflexivity.
Qed.

Lemma np_selects_view np p d : np_selects np p d = np_selects np (view p) d.
Proof. reflexivity. Qed.

Lemma selecting_nps_view nps p d : selecting_nps nps (view p) d = selecting_nps nps p d.
Proof. induction nps as [|np t IH]; cbn [selecting_nps]; [reflexivity|]. rewrite IH. reflexivity. Qed.

Lemma np_layer_point_vw w s d ing pr n : np_layer_point w (vw s) (vw d) ing pr n = np_layer_point w s d ing pr n.
Proof.
  unfold np_layer_point. rewrite if_vw. destruct (if ing then d else s) as [p l|b]; cbn [vw]; [|reflexivity].
  rewrite selecting_nps_view. destruct (selecting_nps (w_nps w) p _) as [[|np sel]|]; cbn [bind]; try reflexivity.
  rewrite nps_allow_vw. reflexivity.
Qed.

Lemma admin_peer_matches_vw ap x : admin_peer_matches ap (vw x) = admin_peer_matches ap x.
Proof. destruct ap, x; reflexivity. Qed.

Lemma admin_peers_select_vw peers x : admin_peers_select peers (vw x) = admin_peers_select peers x.
Proof.
  induction peers as [|ap t IH]; cbn [admin_peers_select]; [reflexivity|].
  rewrite admin_peer_matches_vw, IH. reflexivity.
Qed.

Lemma admin_selects_vw subj rules x : admin_selects subj rules (vw x) = admin_selects subj rules x.
Proof.
  unfold admin_selects, subject_selects. destruct x as [p l|b]; cbn [vw]; [|reflexivity].
  rewrite <- (admin_peer_matches_vw subj (PPod p l)). reflexivity.
Qed.

Lemma admin_ports_contain_vw ports x pr n : admin_ports_contain ports (vw x) pr n = admin_ports_contain ports x pr n.
Proof.
  destruct x as [p l|b]; [|reflexivity].
  induction ports as [|ap t IH]; cbn [admin_ports_contain vw] in *; [reflexivity|]. rewrite IH. reflexivity.
Qed.

Lemma admin_rule_contains_vw ports x pr n : admin_rule_contains ports (vw x) pr n = admin_rule_contains ports x pr n.
Proof. unfold admin_rule_contains. destruct ports; [apply admin_ports_contain_vw | reflexivity]. Qed.

Lemma admin_rules_check_vw rules o d banp pr n :
  admin_rules_check rules (vw o) (vw d) banp pr n = admin_rules_check rules o d banp pr n.
Proof.
  induction rules as [|r t IH]; cbn [admin_rules_check]; [reflexivity|].
  rewrite admin_peers_select_vw, admin_rule_contains_vw, IH. reflexivity.
Qed.

Lemma anps_check_vw anps s d ing pr n : anps_check anps (vw s) (vw d) ing pr n = anps_check anps s d ing pr n.
Proof.
  induction anps as [|a t IH]; cbn [anps_check]; [reflexivity|].
  rewrite !if_vw, admin_selects_vw, admin_rules_check_vw, IH. reflexivity.
Qed.

Lemma banp_check_vw w s d ing pr n : banp_check w (vw s) (vw d) ing pr n = banp_check w s d ing pr n.
Proof.
  unfold banp_check. destruct (w_banp w) as [b|]; [|reflexivity].
  rewrite !if_vw, admin_selects_vw, admin_rules_check_vw. reflexivity.
Qed.

Lemma xgress_allowed_vw w s d ing pr n : xgress_allowed w (vw s) (vw d) ing pr n = xgress_allowed w s d ing pr n.
Proof.
  unfold xgress_allowed. rewrite anps_check_vw, np_layer_point_vw, banp_check_vw. reflexivity.
Qed.

Definition check_core (w : world) (s d : peer) (pr : proto) (n : Z) : outcome bool :=
  do eg <- xgress_allowed w s d false pr n;
  if negb eg then Ok false else xgress_allowed w s d true pr n.

Lemma check_allowed_core w s d pr n :
  check_allowed w s d pr n = if pod_to_itself s d then Ok true else check_core w s d pr n.
Proof. reflexivity. Qed.

Lemma check_core_congr w s s' d d' pr n :
  vw s = vw s' -> vw d = vw d' -> check_core w s d pr n = check_core w s' d' pr n.
Proof.
  intros Hs Hd. unfold check_core.
  rewrite <- !(xgress_allowed_vw w s d), <- !(xgress_allowed_vw w s' d'), Hs, Hd. reflexivity.
Qed.

Definition same_view (p q : pod) : Prop :=
  p_ns p = p_ns q /\ p_labels p = p_labels q /\ p_ports p = p_ports q.

Lemma check_allowed_congr w p p' q q' l1 l2 pr n :
  same_view p p' -> same_view q q' ->
  pod_to_itself (PPod p l1) (PPod q l2) = false -> pod_to_itself (PPod p' l1) (PPod q' l2) = false ->
  check_allowed w (PPod p l1) (PPod q l2) pr n = check_allowed w (PPod p' l1) (PPod q' l2) pr n.
Proof.
  intros (P1 & P2 & P3) (Q1 & Q2 & Q3) H1 H2. rewrite !check_allowed_core, H1, H2.
  apply check_core_congr; unfold vw, view; congruence.
Qed.

Definition nsl_ns (e : engine) (ns : string) : labels :=
  match find_ns ns (e_nss e) with Some n => ns_labels n | None => [(K8sNsNameLabelKey, ns)] end.

Definition kpod (k : okey) (ports : list cport) : pod :=
  let '(ns, own, l) := k in mkPod ns EmptyString l ports own EmptyString false.
Definition kns (k : okey) : string := let '(ns, _, _) := k in ns.

Definition ports_for (e : engine) (k : okey) (ps : list cport) : Prop :=
  exists r, In r (e_pods e) /\ pod_okey r = k /\ p_ports r = ps.

(* the verdict for two different pods with these owner keys and ports *)
Definition kverdict (e : engine) (k : ckey) (ps pd : list cport) : outcome bool :=
  check_core (world_of e)
             (PPod (kpod (ck_src k) ps) (nsl_ns e (kns (ck_src k))))
             (PPod (kpod (ck_dst k) pd) (nsl_ns e (kns (ck_dst k))))
             (ck_proto k) (ck_port k).

Definition entry_valid (e : engine) (k : ckey) (b : bool) : Prop :=
  exists ps pd, ports_for e (ck_src k) ps /\ ports_for e (ck_dst k) pd /\ kverdict e k ps pd = Ok b.

Definition Inv (s : estate) : Prop :=
  forall k b, In (k, b) (es_cache s) -> entry_valid (es_eng s) k b.

(* the engine's own equivalence assumption *)
Definition uniform (e : engine) : Prop :=
  forall p q, In p (e_pods e) -> In q (e_pods e) -> pod_okey p = pod_okey q -> p_ports p = p_ports q.

Lemma Inv_empty e : Inv (mkES e []).
Proof. intros k b []. Qed.

(* eval_cache.go holds fewer entries than the model's cache: the LRU evicts, and deleteWorkload removes every key
   that contains the owner's as a substring.  A smaller cache is as valid. *)
Lemma Inv_same_engine e c c' : (forall x, In x c' -> In x c) -> Inv (mkES e c) -> Inv (mkES e c').
Proof. intros Hsub H k b Hin. apply (H k b). apply Hsub. exact Hin. Qed.

Lemma labels_eqb_spec a : forall b, labels_eqb a b = true <-> a = b.
Proof.
  induction a as [|[k v] t IH]; intros [|[k' v'] t']; cbn [labels_eqb]; try (split; [discriminate | congruence]).
  - split; reflexivity.
  - split.
    + intros [[Hk%String.eqb_eq Hv%String.eqb_eq]%andb_true_iff Ht%IH]%andb_true_iff. congruence.
    + intros H. injection H as <- <- <-. rewrite !String.eqb_refl. apply IH. reflexivity.
Qed.

Lemma okey_eqb_spec a b : okey_eqb a b = true <-> a = b.
Proof.
  destruct a as [[n1 o1] l1], b as [[n2 o2] l2]. cbn [okey_eqb]. split.
  - intros [[Hn%String.eqb_eq Ho%String.eqb_eq]%andb_true_iff Hl%labels_eqb_spec]%andb_true_iff. congruence.
  - intros H. injection H as <- <- <-. rewrite !String.eqb_refl. apply labels_eqb_spec. reflexivity.
Qed.

Lemma ckey_eqb_spec a b : ckey_eqb a b = true <-> a = b.
Proof.
  destruct a as [s1 d1 p1 n1], b as [s2 d2 p2 n2]. unfold ckey_eqb. cbn [ck_src ck_dst ck_proto ck_port]. split.
  - intros [[[Hs%okey_eqb_spec Hd%okey_eqb_spec]%andb_true_iff Hp%proto_eqb_eq]%andb_true_iff Hn%Z.eqb_eq]%andb_true_iff.
    congruence.
  - intros H. injection H as <- <- <- <-.
    rewrite Z.eqb_refl, proto_eqb_refl, !(proj2 (okey_eqb_spec _ _) eq_refl). reflexivity.
Qed.

Lemma cache_get_in k c b : cache_get k c = Some b -> In (k, b) c.
Proof.
  induction c as [|[k' b'] t IH]; cbn [cache_get]; [discriminate|].
  destruct (ckey_eqb k k') eqn:E.
  - apply ckey_eqb_spec in E. subst. intros H; injection H as <-. left; reflexivity.
  - intros H. right. apply IH; exact H.
Qed.

Lemma purge_in k c x : In x (purge k c) -> In x c /\ ck_src (fst x) <> k /\ ck_dst (fst x) <> k.
Proof.
  unfold purge. intros H. apply filter_In in H. destruct H as [Hin Hb]. split; [exact Hin|].
  apply negb_true_iff, orb_false_iff in Hb. destruct Hb as [H1 H2].
  split; intros E; apply okey_eqb_spec in E; congruence.
Qed.

Lemma find_pod_by_key key pods r :
  NoDup (map pod_key pods) -> In r pods -> pod_key r = key -> find_pod key pods = Some r.
Proof.
  unfold find_pod. induction pods as [|q t IH]; cbn [find map In]; intros Hnd Hin Hk; [destruct Hin|].
  inversion Hnd as [|x xs Hnin Hnd']; subst.
  destruct Hin as [-> | Hin]; [rewrite String.eqb_refl; reflexivity|].
  destruct (String.eqb (pod_key q) (pod_key r)) eqn:E; [|apply IH; auto].
  exfalso. apply Hnin. apply String.eqb_eq in E. rewrite E. apply in_map, Hin.
Qed.

(* resolving a query end does not read the cache; the boolean says whether it is dropped *)
Definition resolve_pure (e : engine) (q : qpeer) : engine * bool * outcome peer :=
  match q with
  | QIP a => (e, false, Ok (PIP (a, a)))
  | QPod k =>
      match find_pod k (e_pods e) with
      | None => (e, false, Err ErrOther)
      | Some p =>
          match find_ns (p_ns p) (e_nss e) with
          | Some n => (e, false, Ok (PPod p (ns_labels n)))
          | None => (set_nss e (upsert_ns (ns_with_name_label (mkNs (p_ns p) [(K8sNsNameLabelKey, p_ns p)])) (e_nss e)),
                     true, Ok (PPod p [(K8sNsNameLabelKey, p_ns p)]))
          end
      end
  end.

Lemma resolve_q_pure e c q :
  resolve_q (mkES e c) q =
  let '(e', cl, r) := resolve_pure e q in (mkES e' (if cl then [] else c), r).
Proof.
  destruct q as [k|a]; cbn [resolve_q resolve_pure es_eng]; [|reflexivity].
  destruct (find_pod k (e_pods e)) as [p|]; [|reflexivity].
  destruct (find_ns (p_ns p) (e_nss e)); reflexivity.
Qed.

Definition known_to (e : engine) (x : peer) : Prop :=
  match x with PPod p l => In p (e_pods e) /\ l = nsl_ns e (p_ns p) | PIP _ => True end.

Lemma resolved_same e e' x :
  e_pods e' = e_pods e -> (forall ns, nsl_ns e' ns = nsl_ns e ns) -> known_to e x -> known_to e' x.
Proof. intros Hp Hn. destruct x as [p l|b]; cbn [known_to]; [|trivial]. rewrite Hp, Hn. trivial. Qed.

Lemma ns_with_name_label_synth nm :
  ns_with_name_label (mkNs nm [(K8sNsNameLabelKey, nm)]) = mkNs nm [(K8sNsNameLabelKey, nm)].
Proof. unfold ns_with_name_label. cbn [ns_labels lookup]. rewrite String.eqb_refl. reflexivity. Qed.

Lemma find_ns_upsert x n l :
  find_ns x (upsert_ns n l) = if String.eqb x (ns_name n) then Some n else find_ns x l.
Proof.
  induction l as [|m t IH]; cbn [upsert_ns find_ns]; [reflexivity|].
  destruct (String.eqb (ns_name n) (ns_name m)) eqn:E; cbn [find_ns].
  - apply String.eqb_eq in E. rewrite <- E. destruct (String.eqb x (ns_name n)); reflexivity.
  - rewrite IH. destruct (String.eqb x (ns_name m)) eqn:Exm; [|reflexivity].
    apply String.eqb_eq in Exm. subst x. rewrite String.eqb_sym, E. reflexivity.
Qed.

Lemma nsl_ns_synth e nm :
  find_ns nm (e_nss e) = None ->
  forall ns, nsl_ns (set_nss e (upsert_ns (ns_with_name_label (mkNs nm [(K8sNsNameLabelKey, nm)])) (e_nss e))) ns
             = nsl_ns e ns.
Proof.
  intros Hm ns. unfold nsl_ns. cbn [set_nss e_nss]. rewrite ns_with_name_label_synth, find_ns_upsert. cbn [ns_name].
  destruct (String.eqb ns nm) eqn:E; [|reflexivity]. apply String.eqb_eq in E. subst ns. rewrite Hm. reflexivity.
Qed.

Lemma resolve_pure_spec e q :
  let '(e', cl, r) := resolve_pure e q in
  e_pods e' = e_pods e /\ (forall ns, nsl_ns e' ns = nsl_ns e ns) /\
  (forall c, Inv (mkES e c) -> Inv (mkES e' (if cl then [] else c))) /\
  forall x, r = Ok x -> known_to e' x.
Proof.
  destruct q as [k|a]; cbn [resolve_pure].
  2: { repeat split; auto. intros x Hx; injection Hx as <-. exact I. }
  destruct (find_pod k (e_pods e)) as [p|] eqn:Hf; [|repeat split; auto; discriminate].
  apply find_some in Hf. destruct Hf as [Hin _].
  destruct (find_ns (p_ns p) (e_nss e)) as [m|] eqn:Hm.
  - repeat split; auto. intros x Hx; injection Hx as <-.
    split; [exact Hin|]. unfold nsl_ns. rewrite Hm. reflexivity.
  - pose proof (nsl_ns_synth e (p_ns p) Hm) as N. repeat split; [exact N | intros c _; apply Inv_empty|].
    intros x Hx; injection Hx as <-. split; [exact Hin|]. rewrite N. unfold nsl_ns. rewrite Hm. reflexivity.
Qed.

(* this is where uniformity is used: the ports of a pod are those of any witness of its owner key *)
Lemma resolved_view e p ps :
  uniform e -> In p (e_pods e) -> ports_for e (pod_okey p) ps -> view p = view (kpod (pod_okey p) ps).
Proof. intros Hu Hin (r & Hr & Hrk & <-). rewrite (Hu r p Hr Hin Hrk). reflexivity. Qed.

Lemma entry_valid_iff_check e src dst pr n k b :
  uniform e -> known_to e src -> known_to e dst -> pod_to_itself src dst = false ->
  cache_key src dst pr n = Some k ->
  entry_valid e k b <-> check_allowed (world_of e) src dst pr n = Ok b.
Proof.
  intros Hu Hs Hd Hself Hk. unfold cache_key in Hk.
  destruct src as [p lp|]; [|discriminate]. destruct dst as [q lq|]; [|discriminate].
  destruct (negb _ && negb _); [|discriminate]. injection Hk as <-.
  destruct Hs as [Hp ->], Hd as [Hq ->].
  assert (Hcore : forall ps pd, ports_for e (pod_okey p) ps -> ports_for e (pod_okey q) pd ->
            kverdict e (mkCK (pod_okey p) (pod_okey q) pr n) ps pd
            = check_allowed (world_of e) (PPod p (nsl_ns e (p_ns p))) (PPod q (nsl_ns e (p_ns q))) pr n).
  { intros ps pd Hps Hpd. rewrite check_allowed_core, Hself. apply check_core_congr; cbn [vw ck_src ck_dst].
    - rewrite <- (resolved_view e p ps Hu Hp Hps). reflexivity.
    - rewrite <- (resolved_view e q pd Hu Hq Hpd). reflexivity. }
  split.
  - intros (ps & pd & Hps & Hpd & Hv). rewrite <- (Hcore ps pd Hps Hpd). exact Hv.
  - intros Hc.
    assert (Hps : ports_for e (pod_okey p) (p_ports p)) by (exists p; auto).
    assert (Hpd : ports_for e (pod_okey q) (p_ports q)) by (exists q; auto).
    exists (p_ports p), (p_ports q). rewrite (Hcore _ _ Hps Hpd). auto.
Qed.

(* the engine state two resolutions of a query lead to *)
Definition query_engine (e : engine) (q : query) : engine :=
  fst (fst (resolve_pure (fst (fst (resolve_pure e (q_src q)))) (q_dst q))).

Lemma do_query_spec s q :
  Inv s -> uniform (query_engine (es_eng s) q) ->
  exists s', do_query s q = (s', fresh_answer s q) /\ Inv s' /\ e_pods (es_eng s') = e_pods (es_eng s).
Proof.
  destruct s as [e c]. unfold fresh_answer, query_engine, do_query. cbn [es_eng]. intros HInv Hunif.
  assert (F : forall cl : bool, (if cl then [] else []) = @nil (ckey * bool)) by (intros []; reflexivity).
  rewrite !resolve_q_pure.
  pose proof (resolve_pure_spec e (q_src q)) as S1.
  destruct (resolve_pure e (q_src q)) as [[e1 cl1] rs]. cbn [fst] in Hunif. rewrite F.
  destruct S1 as (P1 & _ & I1 & S1). apply I1 in HInv.
  destruct rs as [src|]; [|eauto].
  rewrite !resolve_q_pure.
  pose proof (resolve_pure_spec e1 (q_dst q)) as S2.
  destruct (resolve_pure e1 (q_dst q)) as [[e2 cl2] rd]. cbn [fst] in Hunif. rewrite F.
  destruct S2 as (P2 & N2 & I2 & S2). apply I2 in HInv. rewrite P1 in P2.
  destruct rd as [dst|]; [|eauto].
  assert (Hsrc : known_to e2 src) by (apply (resolved_same e1); [congruence | exact N2 | exact (S1 _ eq_refl)]).
  assert (Hdst : known_to e2 dst) by exact (S2 _ eq_refl).
  destruct (pod_to_itself src dst) eqn:Hself; [eauto|].
  set (c2 := if cl2 then [] else if cl1 then [] else c) in *. cbn [es_eng es_cache].
  destruct (cache_key src dst (q_proto q) (q_port q)) as [k|] eqn:Hk; cbn [cache_get].
  - pose proof (fun b => entry_valid_iff_check e2 src dst _ _ k b Hunif Hsrc Hdst Hself Hk) as V.
    destruct (cache_get k c2) as [b|] eqn:Hget.
    + (* hit: the entry is valid, so it is what the evaluation returns *)
      apply cache_get_in, HInv, V in Hget. rewrite Hget. eauto.
    + (* miss: the verdict stored is the one computed *)
      destruct (check_allowed _ src dst _ _) as [b|]; [|eauto].
      eexists. split; [reflexivity|]. split; [|exact P2].
      intros k' b' [E | Hin]; [injection E as <- <-; apply V; reflexivity | exact (HInv _ _ Hin)].
  - destruct (check_allowed _ src dst _ _); eauto.
Qed.

Theorem do_query_refines_fresh s q :
  Inv s -> uniform (query_engine (es_eng s) q) ->
  snd (do_query s q) = fresh_answer s q /\ Inv (fst (do_query s q)).
Proof. intros HI Hu. destruct (do_query_spec s q HI Hu) as (s' & -> & HI' & _). split; [reflexivity | exact HI']. Qed.

Definition keys_unique (e : engine) : Prop := NoDup (map pod_key (e_pods e)).
Definition Inv2 (s : estate) : Prop := Inv s /\ keys_unique (es_eng s).

Lemma Inv2_clear s e : Inv2 s -> e_pods e = e_pods (es_eng s) -> Inv2 (mkES e []).
Proof. intros [_ HU] Hp. split; [apply Inv_empty|]. unfold keys_unique. cbn [es_eng]. rewrite Hp. exact HU. Qed.

Lemma Inv2_init : Inv2 estate0.
Proof. split; [apply Inv_empty | constructor]. Qed.

Lemma upsert_pod_in p l x : In x (upsert_pod p l) -> x = p \/ In x l.
Proof.
  induction l as [|q t IH]; cbn [upsert_pod]; [intros [<- | []]; left; reflexivity|].
  destruct (String.eqb (pod_key p) (pod_key q)); intros [<- | Hin]; cbn [In]; auto.
  destruct (IH Hin); auto.
Qed.

Lemma upsert_pod_keeps p l x : In x l -> pod_key x <> pod_key p -> In x (upsert_pod p l).
Proof.
  induction l as [|q t IH]; cbn [upsert_pod]; [intros []|].
  intros [-> | Hin] Hne.
  - destruct (String.eqb (pod_key p) (pod_key x)) eqn:E; [apply String.eqb_eq in E; congruence | left; reflexivity].
  - destruct (String.eqb (pod_key p) (pod_key q)); [right; exact Hin | right; apply IH; assumption].
Qed.

Lemma upsert_pod_new p l : In p (upsert_pod p l).
Proof.
  induction l as [|q t IH]; cbn [upsert_pod]; [left; reflexivity|].
  destruct (String.eqb (pod_key p) (pod_key q)); [left; reflexivity | right; exact IH].
Qed.

Lemma upsert_pod_keys p l : NoDup (map pod_key l) -> NoDup (map pod_key (upsert_pod p l)).
Proof.
  induction l as [|q t IH]; cbn [upsert_pod map]; intros Hnd; [constructor; [intros [] | constructor]|].
  inversion Hnd as [|x xs Hnin Hnd']; subst.
  destruct (String.eqb (pod_key p) (pod_key q)) eqn:E; cbn [map].
  - apply String.eqb_eq in E. rewrite E. exact Hnd.
  - constructor; [|apply IH, Hnd']. intros Hin. apply in_map_iff in Hin. destruct Hin as (x & Hx & Hin).
    destruct (upsert_pod_in _ _ _ Hin) as [-> | Hin'].
    + rewrite Hx, String.eqb_refl in E. discriminate E.
    + apply Hnin. rewrite <- Hx. apply in_map, Hin'.
Qed.

Lemma Inv_set_pods s pods c :
  Inv s -> incl c (es_cache s) ->
  (forall k b K ps, In (k, b) c -> K = ck_src k \/ K = ck_dst k ->
     ports_for (es_eng s) K ps -> ports_for (set_pods (es_eng s) pods) K ps) ->
  Inv (mkES (set_pods (es_eng s) pods) c).
Proof.
  intros HI Hc Hw k b Hin. cbn [es_eng es_cache] in *.
  destruct (HI k b (Hc _ Hin)) as (ps & pd & Hps & Hpd & Hv).
  (* evaluation never reads the pod list of the world: the verdict is the same term *)
  exists ps, pd. repeat split; [apply (Hw k b); auto .. | exact Hv].
Qed.

Lemma Inv2_ins_pod s d : Inv2 s -> Inv2 (fst (ins_pod s d)).
Proof.
  intros [HI HU]. unfold ins_pod. destruct (negb (pd_has_ip d)); [split; assumption|].
  set (p := pod_of_doc d). cbn [fst]. split; [|apply upsert_pod_keys, HU].
  apply Inv_set_pods; [exact HI | destruct (find_pod _ _); [apply incl_filter | apply incl_refl]|].
  intros k b K ps Hin HK (r & Hr & Hrk & Hrp). exists r. split; [|auto].
  apply upsert_pod_keeps; [exact Hr|]. intros Hkey.
  (* r is the pod being replaced, and the entries naming its owner were purged *)
  rewrite (find_pod_by_key _ _ _ HU Hr Hkey) in Hin. apply purge_in in Hin. destruct Hin as (_ & N1 & N2).
  cbn [fst] in N1, N2. destruct HK as [-> | ->]; congruence.
Qed.

Lemma Inv2_del_pod s ns name : Inv2 s -> uniform (es_eng s) -> Inv2 (fst (del_pod s ns name)).
Proof.
  intros [HI HU] Hunif. unfold del_pod.
  set (key := (ns ++ "/" ++ name)%string).
  destruct (find_pod key (e_pods (es_eng s))) as [old|] eqn:Hf; [|split; assumption].
  set (rest := filter (fun p => negb (String.eqb (pod_key p) key)) (e_pods (es_eng s))).
  cbn [fst]. split; [|apply NoDup_map_filter, HU].
  apply Inv_set_pods; [exact HI | destruct (existsb _ rest); [apply incl_refl | apply incl_filter]|].
  intros k b K ps Hin HK (r & Hr & Hrk & Hrp).
  destruct (String.eqb (pod_key r) key) eqn:E.
  - (* r is the deleted pod: another pod of its owner remains, with the same ports, or the entry was purged *)
    apply String.eqb_eq in E. rewrite (find_pod_by_key _ _ _ HU Hr E) in Hf. injection Hf as <-.
    destruct (existsb _ rest) eqn:Hex.
    + apply existsb_exists in Hex. destruct Hex as (r2 & Hr2 & Hk2). apply okey_eqb_spec in Hk2.
      exists r2. split; [exact Hr2|]. split; [congruence|]. rewrite <- Hrp.
      apply filter_In in Hr2. apply Hunif; [apply Hr2 | exact Hr | exact Hk2].
    + apply purge_in in Hin. destruct Hin as (_ & N1 & N2). cbn [fst] in N1, N2. destruct HK as [-> | ->]; congruence.
  - exists r. split; [|auto]. apply filter_In. split; [exact Hr|]. rewrite E. reflexivity.
Qed.

(* side conditions on a history: the engine's own equivalence assumption holds where the cache is
   consulted or pruned; workload objects are not part of the histories of this property *)
Definition op_ok (s : estate) (o : eop) : Prop :=
  match o with
  | EQuery q => uniform (query_engine (es_eng s) q)
  | EDelPod _ _ => uniform (es_eng s)
  | EInsWl _ => False
  | _ => True
  end.

Fixpoint good_run (s : estate) (ops : list eop) : Prop :=
  match ops with
  | [] => True
  | o :: t => op_ok s o /\ good_run (fst (step s o)) t
  end.

Lemma Inv2_fold_ins_ns nss : forall s, Inv2 s -> Inv2 (fold_left ins_ns nss s).
Proof.
  induction nss as [|n t IH]; intros s H; cbn [fold_left]; [exact H|].
  apply IH. apply (Inv2_clear s _ H); reflexivity.
Qed.

Lemma Inv2_ins_np s np : Inv2 s -> Inv2 (fst (ins_np s np)).
Proof.
  intros H. unfold ins_np. cbn [insert_obj].
  destruct (existsb _ _); [exact H | apply (Inv2_clear s _ H); reflexivity].
Qed.

Lemma Inv2_set_res_nps nps : forall s, Inv2 s -> Inv2 (fst (set_res_nps s nps)).
Proof.
  induction nps as [|np t IH]; intros s H; cbn [set_res_nps]; [exact H|].
  pose proof (Inv2_ins_np s np H) as H1. destruct (ins_np s np) as [s' []]; [apply IH | |]; exact H1.
Qed.

Lemma Inv2_set_res_pods pods : forall s, Inv2 s -> Inv2 (fst (set_res_pods s pods)).
Proof.
  induction pods as [|d t IH]; intros s H; cbn [set_res_pods]; [exact H|].
  pose proof (Inv2_ins_pod s d H) as H1. destruct (ins_pod s d) as [s' []]; [apply IH | |]; exact H1.
Qed.

Lemma Inv2_step s o : Inv2 s -> op_ok s o -> Inv2 (fst (step s o)).
Proof.
  intros H Hok. destruct o; cbn [step op_ok] in *.
  - apply (Inv2_clear s _ H); reflexivity.
  - apply (Inv2_clear s _ H); reflexivity.
  - apply Inv2_ins_pod; exact H.
  - apply Inv2_del_pod; [exact H | exact Hok].
  - contradiction.
  - apply Inv2_ins_np; exact H.
  - apply (Inv2_clear s _ H); reflexivity.
  - unfold ins_anp. destruct (str_mem _ _); [exact H | apply (Inv2_clear s _ H); reflexivity].
  - apply (Inv2_clear s _ H); reflexivity.
  - destruct (e_banp (es_eng s)); [exact H|].
    destruct (String.eqb (b_name b) "default"); [apply (Inv2_clear s _ H); reflexivity | exact H].
  - destruct (e_banp (es_eng s)) as [b|]; [|exact H].
    destruct (String.eqb (b_name b) name); [apply (Inv2_clear s _ H); reflexivity | exact H].
  - pose proof (Inv2_set_res_nps nps _ (Inv2_fold_ins_ns nss s H)) as H2.
    destruct (set_res_nps (fold_left ins_ns nss s) nps) as [s2 []]; [apply Inv2_set_res_pods | |]; exact H2.
  - exact Inv2_init.
  - destruct H as [HI HU]. destruct (do_query_spec s q HI Hok) as (s' & -> & HI' & Hp).
    split; [exact HI'|]. unfold keys_unique. cbn [fst]. rewrite Hp. exact HU.
Qed.

(* every query answered by a cache-less evaluation of the engine's current objects *)
Fixpoint run_fresh (s : estate) (ops : list eop) : list eanswer :=
  match ops with
  | [] => []
  | o :: t =>
      let '(s', a) := step s o in
      (match o with EQuery q => fresh_answer s q | _ => a end) :: run_fresh s' t
  end.

Theorem engine_refines_fresh ops : forall s,
  Inv2 s -> good_run s ops -> run_ops s ops = run_fresh s ops.
Proof.
  induction ops as [|o t IH]; intros s H Hg; cbn [run_ops run_fresh]; [reflexivity|].
  destruct Hg as [Hok Hg].
  pose proof (Inv2_step s o H Hok) as H'.
  destruct (step s o) as [s' a] eqn:Hs. cbn [fst] in *.
  f_equal; [|apply IH; assumption].
  destruct o; try reflexivity.
  cbn [step] in Hs. destruct H as [HI _].
  pose proof (proj1 (do_query_refines_fresh s q HI Hok)) as Ha. rewrite Hs in Ha. exact Ha.
Qed.

Definition ins_all (l : list anp) : list anp := fold_left (fun acc a => insert_by_prio a acc) l [].

Lemma ins_all_rev l : ins_all l = sort_by_prio (rev l).
Proof. symmetry. apply fold_left_rev_right. Qed.

(* C15: admin policies are applied by priority regardless of insertion order *)
Theorem anp_insert_order_irrelevant l1 l2 :
  Permutation l1 l2 -> NoDup (map a_prio l1) -> ins_all l1 = ins_all l2.
Proof.
  intros Hp Hnd. rewrite !ins_all_rev. apply sort_by_prio_perm_invariant.
  - apply (Permutation_trans (Permutation_sym (Permutation_rev l1))), (Permutation_trans Hp), Permutation_rev.
  - rewrite map_rev. apply NoDup_rev, Hnd.
Qed.
