(* When a printed text determines what was printed.  A line is a row of fields, each over an alphabet that the
   separator after it leaves, so that the separator cannot start early ([delimits], [cells_inj]).  A text is a list of
   items, each recognisable whatever follows it ([self_delimiting]); the items may have been sorted before printing
   ([cat_determines], [items_determine]). *)
From Coq Require Import List ZArith Bool String Ascii Lia Permutation Decimal DecimalString DecimalN.
From NP Require Import ConnSet Basics.
Import ListNotations.
Open Scope string_scope.

Fixpoint all_chars (f : ascii -> bool) (s : string) : bool :=
  match s with EmptyString => true | String c t => f c && all_chars f t end.

Definition chars (f : ascii -> bool) (s : string) : Prop := all_chars f s = true.

Lemma all_chars_app f a b : all_chars f (a ++ b) = all_chars f a && all_chars f b.
Proof. induction a as [|c a IH]; cbn; [reflexivity|]. rewrite IH, andb_assoc. reflexivity. Qed.

Lemma chars_app f a b : chars f a -> chars f b -> chars f (a ++ b).
Proof. unfold chars. intros Ha Hb. rewrite all_chars_app, Ha, Hb. reflexivity. Qed.

Lemma all_chars_weaken (f g : ascii -> bool) s :
  (forall c, f c = true -> g c = true) -> all_chars f s = true -> all_chars g s = true.
Proof.
  intros Hfg. induction s as [|c s IH]; cbn; [reflexivity|]. intros H. apply andb_true_iff in H.
  destruct H as [H1 H2]. rewrite (Hfg c H1), (IH H2). reflexivity.
Qed.

(* an alphabet that excludes c lies within 'every character but c'; used for the csv and comma alphabets *)
Lemma all_but (g : ascii -> bool) c : g c = false -> forall ch, g ch = true -> negb (Ascii.eqb ch c) = true.
Proof. intros Hc ch Hch. destruct (Ascii.eqb_spec ch c) as [->|_]; [congruence|reflexivity]. Qed.

Lemma chars_without (f : ascii -> bool) c s : f c = false -> chars f s -> chars (fun ch => negb (Ascii.eqb ch c)) s.
Proof. intros Hc. exact (all_chars_weaken f _ s (all_but f c Hc)). Qed.

Lemma append_inj_l (a b c : string) : a ++ b = a ++ c -> b = c.
Proof. induction a as [|x a IH]; cbn; intros H; [exact H|]. injection H as H. exact (IH H). Qed.

Lemma append_nil_r (a : string) : a ++ "" = a.
Proof. induction a as [|x a IH]; cbn; [reflexivity|]. rewrite IH. reflexivity. Qed.

Lemma append_assoc (a b c : string) : (a ++ b) ++ c = a ++ (b ++ c).
Proof. induction a as [|x a IH]; cbn; [reflexivity|]. rewrite IH. reflexivity. Qed.

Lemma length_append a b : String.length (a ++ b) = (String.length a + String.length b)%nat.
Proof. induction a as [|x a IH]; cbn; [reflexivity|]. rewrite IH. reflexivity. Qed.

Lemma append_inj_r (a b c : string) : a ++ c = b ++ c -> a = b.
Proof.
  revert b. induction a as [|x a IH]; intros [|y b] H; cbn in H;
    [reflexivity| | |injection H as -> H; f_equal; exact (IH b H)];
    exfalso; apply (f_equal String.length) in H; cbn in H; rewrite length_append in H; lia.
Qed.

Lemma append_nonempty (a b : string) : a <> "" -> a ++ b <> "".
Proof. destruct a; [congruence|discriminate]. Qed.

Lemma append_nonempty_r (a b : string) : b <> "" -> a ++ b <> "".
Proof. destruct a; [intros H; exact H|discriminate]. Qed.

Lemma split_unique (f : ascii -> bool) (c : ascii) (a a' r r' : string) :
  f c = false -> all_chars f a = true -> all_chars f a' = true ->
  a ++ String c r = a' ++ String c r' -> a = a' /\ r = r'.
Proof.
  intros Hc. revert a'. induction a as [|x a IH]; intros [|x' a'] Ha Ha' H; cbn in *.
  - injection H as H. split; [reflexivity|exact H].
  - injection H as H1 H2. subst x'. apply andb_true_iff in Ha'. destruct Ha' as [Ha' _]. congruence.
  - injection H as H1 H2. subst x. apply andb_true_iff in Ha. destruct Ha as [Ha _]. congruence.
  - injection H as H1 H2. subst x'. apply andb_true_iff in Ha. apply andb_true_iff in Ha'.
    destruct (IH a' (proj2 Ha) (proj2 Ha') H2) as [E1 E2]. subst. split; reflexivity.
Qed.

Lemma leaves_alphabet f sep : all_chars f sep = false ->
  exists pre c post, sep = pre ++ String c post /\ all_chars f pre = true /\ f c = false.
Proof.
  induction sep as [|x sep IH]; cbn [all_chars]; [discriminate|]. destruct (f x) eqn:Fx; cbn [andb].
  - intros H. destruct (IH H) as (pre & c & post & -> & Hp & Hc). exists (String x pre), c, post.
    cbn [append all_chars]. rewrite Fx, Hp. repeat split. exact Hc.
  - intros _. exists "", x, sep. repeat split. exact Fx.
Qed.

Lemma delimits f sep : all_chars f sep = false ->
  forall a a' r r', chars f a -> chars f a' -> a ++ sep ++ r = a' ++ sep ++ r' -> a = a' /\ r = r'.
Proof.
  intros Hs a a' r r' Ha Ha' H. destruct (leaves_alphabet f sep Hs) as (pre & c & post & -> & Hp & Hc).
  rewrite !(append_assoc pre) in H. cbn [append] in H. rewrite <- !(append_assoc _ pre) in H.
  apply (split_unique f c) in H; [|exact Hc|exact (chars_app f a pre Ha Hp)|exact (chars_app f a' pre Ha' Hp)].
  destruct H as [E1 E2]. split; [exact (append_inj_r _ _ _ E1)|exact (append_inj_l _ _ _ E2)].
Qed.

Lemma no_sep_inside f sep a a' r : all_chars f sep = false -> all_chars f a = true -> a <> a' ++ sep ++ r.
Proof.
  intros Hs Ha ->. rewrite !all_chars_app, Hs in Ha. cbn [andb] in Ha. rewrite andb_false_r in Ha. discriminate Ha.
Qed.

Fixpoint cells (seps fields : list string) (X : string) : string :=
  match seps, fields with
  | sep :: seps', a :: fields' => a ++ sep ++ cells seps' fields' X
  | _, _ => X
  end.

Fixpoint fields_in (fs : list (ascii -> bool)) (fields : list string) : Prop :=
  match fs, fields with
  | [], [] => True
  | f :: fs', a :: fields' => chars f a /\ fields_in fs' fields'
  | _, _ => False
  end.

Fixpoint leave_all (fs : list (ascii -> bool)) (seps : list string) : bool :=
  match fs, seps with
  | [], [] => true
  | f :: fs', sep :: seps' => negb (all_chars f sep) && leave_all fs' seps'
  | _, _ => false
  end.

Lemma cells_inj fs seps l l' X X' :
  leave_all fs seps = true -> fields_in fs l -> fields_in fs l' ->
  cells seps l X = cells seps l' X' -> l = l' /\ X = X'.
Proof.
  revert seps l l'. induction fs as [|f fs IH]; intros [|sep seps] [|a l] [|a' l']; cbn [leave_all fields_in cells];
    try discriminate; try contradiction.
  - intros _ _ _ E. split; [reflexivity|exact E].
  - intros K [Fa Hl] [Fa' Hl'] E. apply andb_prop in K. destruct K as [K1 K2]. apply negb_true_iff in K1.
    destruct (delimits f sep K1 a a' _ _ Fa Fa' E) as [-> E2].
    destruct (IH seps l l' K2 Hl Hl' E2) as [-> ->]. split; reflexivity.
Qed.

Lemma cells_app seps l X Y : cells seps l X ++ Y = cells seps l (X ++ Y).
Proof.
  revert l. induction seps as [|sep seps IH]; intros [|a l]; cbn [cells]; try reflexivity.
  rewrite !append_assoc, IH. reflexivity.
Qed.

Lemma framed_app k0 seps l X Y : (k0 ++ cells seps l X) ++ Y = k0 ++ cells seps l (X ++ Y).
Proof. rewrite append_assoc, cells_app. reflexivity. Qed.

Definition cat {A} (enc : A -> string) (l : list A) : string := fold_right (fun a acc => enc a ++ acc) "" l.

Definition self_delimiting {A} (P : A -> Prop) (enc : A -> string) : Prop :=
  forall a a' X X', P a -> P a' -> enc a ++ X = enc a' ++ X' -> a = a' /\ X = X'.

Lemma cat_inj {A} (P : A -> Prop) enc l l' :
  self_delimiting P enc -> (forall a, P a -> enc a <> "") -> Forall P l -> Forall P l' -> cat enc l = cat enc l' -> l = l'.
Proof.
  intros HD HN Hl. revert l'. induction Hl as [|a l Pa _ IH]; intros l' Hl' H; destruct Hl' as [|a' l' Pa' Hl']; cbn [cat fold_right] in H.
  - reflexivity.
  - exfalso. symmetry in H. exact (append_nonempty _ _ (HN a' Pa') H).
  - exfalso. exact (append_nonempty _ _ (HN a Pa) H).
  - destruct (HD a a' _ _ Pa Pa' H) as [-> E]. f_equal. exact (IH l' Hl' E).
Qed.

Lemma self_delimiting_map {A B} (P : A -> Prop) (Q : B -> Prop) (f : A -> B) enc :
  (forall a, P a -> Q (f a)) -> (forall a a', P a -> P a' -> f a = f a' -> a = a') ->
  self_delimiting Q enc -> self_delimiting P (fun a => enc (f a)).
Proof.
  intros HQ Hf HD a a' X X' Pa Pa' H. destruct (HD _ _ X X' (HQ a Pa) (HQ a' Pa') H) as [E EX].
  split; [exact (Hf a a' Pa Pa' E)|exact EX].
Qed.

(* framed: a constant k0 before the cells *)
Lemma framed_delimiting {A} (fields : A -> list string) fs (pr : A -> string) k0 seps :
  (forall a X, pr a ++ X = k0 ++ cells seps (fields a) X) -> leave_all fs seps = true ->
  (forall a a', fields a = fields a' -> a = a') ->
  self_delimiting (fun a => fields_in fs (fields a)) pr.
Proof.
  intros Sh HK Hinj a a' X X' Fa Fa' H. rewrite !Sh in H. apply append_inj_l in H.
  destruct (cells_inj fs seps _ _ X X' HK Fa Fa' H) as [E EX]. split; [exact (Hinj a a' E)|exact EX].
Qed.

Lemma cat_map {A B} (f : A -> B) enc l : cat enc (map f l) = cat (fun a => enc (f a)) l.
Proof. unfold cat. induction l as [|a l IH]; cbn [map fold_right]; [reflexivity|]. rewrite IH. reflexivity. Qed.

Theorem cat_determines {A B} (P : A -> Prop) (f : A -> B) enc l l' L L' :
  self_delimiting P (fun a => enc (f a)) -> (forall a, P a -> enc (f a) <> "") -> Forall P l -> Forall P l' ->
  Permutation L (map f l) -> Permutation L' (map f l') -> cat enc L = cat enc L' -> Permutation l l'.
Proof.
  intros HD HN Hl Hl' HL HL' H.
  destruct (Permutation_map_inv f l HL) as (m & -> & Hm). destruct (Permutation_map_inv f l' HL') as (m' & -> & Hm').
  rewrite !cat_map in H.
  apply (cat_inj P) in H; [|exact HD|exact HN|exact (Permutation_Forall Hm Hl)|exact (Permutation_Forall Hm' Hl')].
  subst m'. exact (Permutation_trans Hm (Permutation_sym Hm')).
Qed.

(* [join] and [Z_str] are Model/ConnSet's *)
Lemma join_cons sep x y t : join sep (x :: y :: t) = x ++ sep ++ join sep (y :: t).
Proof. reflexivity. Qed.

Lemma join_nonempty sep h t : h <> "" -> join sep (h :: t) <> "".
Proof. intros Hh. destruct t; [exact Hh|apply append_nonempty; exact Hh]. Qed.

Lemma chars_join f sep l : chars f sep -> Forall (chars f) l -> chars f (join sep l).
Proof.
  intros Hs Hl. induction Hl as [|x l Hx Hl IH]; [reflexivity|]. destruct l as [|y l]; [exact Hx|].
  rewrite join_cons. unfold chars in *. rewrite !all_chars_app, Hx, Hs. exact IH.
Qed.

Lemma join_app_ne sep (a b : list string) :
  a <> [] -> b <> [] -> join sep (a ++ b) = join sep a ++ sep ++ join sep b.
Proof.
  intros Ha Hb. induction a as [|x a IH]; [congruence|]. destruct a as [|y a].
  - cbn [app]. destruct b as [|z b]; [congruence|]. reflexivity.
  - change ((x :: y :: a) ++ b)%list with (x :: y :: (a ++ b)%list). rewrite !join_cons.
    change (y :: (a ++ b)%list) with ((y :: a) ++ b)%list. rewrite IH by discriminate.
    rewrite !append_assoc. reflexivity.
Qed.

Lemma join_tail_eq sep h L L' : sep <> "" -> join sep (h :: L) = join sep (h :: L') -> join sep L = join sep L'.
Proof.
  intros Hs H. destruct L as [|x L], L' as [|y L']; [reflexivity| | |].
  - exfalso. rewrite join_cons in H. cbn [join] in H. rewrite <- (append_nil_r h) in H at 1.
    apply append_inj_l in H. symmetry in H. exact (append_nonempty sep _ Hs H).
  - exfalso. rewrite join_cons in H. cbn [join] in H. rewrite <- (append_nil_r h) in H at 2.
    apply append_inj_l in H. exact (append_nonempty sep _ Hs H).
  - rewrite !join_cons in H. apply append_inj_l in H. apply append_inj_l in H. exact H.
Qed.

Lemma join_cat sep x l : join sep (x :: l) ++ sep = cat (fun s => s ++ sep) (x :: l).
Proof.
  revert x. induction l as [|y l IH]; intros x.
  - cbn [join cat fold_right]. rewrite append_nil_r. reflexivity.
  - change (cat (fun s => s ++ sep) (x :: y :: l)) with ((x ++ sep) ++ cat (fun s => s ++ sep) (y :: l)).
    rewrite <- (IH y), join_cons, !append_assoc. reflexivity.
Qed.

Lemma join_map_inj {A} (P : A -> Prop) (pr : A -> string) sep l l' :
  self_delimiting P (fun a => pr a ++ sep) -> sep <> "" -> Forall P l -> Forall P l' -> l <> [] -> l' <> [] ->
  join sep (map pr l) = join sep (map pr l') -> l = l'.
Proof.
  intros HD Hs Hl Hl' N N' H. apply (cat_inj P (fun a => pr a ++ sep)); [exact HD| |exact Hl|exact Hl'|].
  - intros a _. exact (append_nonempty_r (pr a) sep Hs).
  - destruct l as [|a l]; [congruence|]. destruct l' as [|a' l']; [congruence|].
    rewrite <- !(cat_map pr (fun s => s ++ sep)). cbn [map] in *. rewrite <- !join_cat, H. reflexivity.
Qed.

Lemma join_inj (f : ascii -> bool) sep (l l' : list string) :
  all_chars f sep = false -> Forall (chars f) l -> Forall (chars f) l' -> l <> [] -> l' <> [] ->
  join sep l = join sep l' -> l = l'.
Proof.
  intros Hs Hl Hl' N N' H.
  apply (join_map_inj (chars f) (fun s => s) sep); [|intros ->; discriminate Hs|exact Hl|exact Hl'|exact N|exact N'|rewrite !map_id; exact H].
  intros a a' X X' Ha Ha' K. rewrite !append_assoc in K. exact (delimits f sep Hs a a' X X' Ha Ha' K).
Qed.

Theorem items_determine {A} (P : A -> Prop) (pr : A -> string) sep l l' L L' :
  self_delimiting P (fun a => pr a ++ sep) -> sep <> "" -> (forall a, P a -> pr a <> "") ->
  Forall P l -> Forall P l' -> Permutation L (map pr l) -> Permutation L' (map pr l') ->
  join sep L = join sep L' -> Permutation l l'.
Proof.
  intros HD Hs HN Hl Hl' HL HL' H.
  destruct (Permutation_map_inv pr l HL) as (m & -> & Hm). destruct (Permutation_map_inv pr l' HL') as (m' & -> & Hm').
  assert (E : m = m').
  { destruct (Permutation_Forall Hm Hl) as [|a m Pa Pm], (Permutation_Forall Hm' Hl') as [|a' m' Pa' Pm'].
    - reflexivity.
    - exfalso. symmetry in H. exact (join_nonempty sep _ _ (HN a' Pa') H).
    - exfalso. exact (join_nonempty sep _ _ (HN a Pa) H).
    - apply (join_map_inj P pr sep); [exact HD|exact Hs|constructor; assumption|constructor; assumption|discriminate|discriminate|exact H]. }
  subst m'. exact (Permutation_trans Hm (Permutation_sym Hm')).
Qed.

Definition is_digit (c : ascii) : bool :=
  match c with
  | "0" | "1" | "2" | "3" | "4" | "5" | "6" | "7" | "8" | "9" => true
  | _ => false
  end%char.

Lemma nilempty_digits d : all_chars is_digit (NilEmpty.string_of_uint d) = true.
Proof. induction d; cbn; try rewrite IHd; reflexivity. Qed.

Lemma nilzero_digits d : all_chars is_digit (NilZero.string_of_uint d) = true.
Proof. destruct d; try reflexivity; apply nilempty_digits. Qed.

Lemma N_to_uint_nonnil n : N.to_uint n <> Nil.
Proof. destruct n as [|p]; cbn; [discriminate|]. apply DecimalPos.Unsigned.to_uint_nonnil. Qed.

Lemma Z_str_nonneg z : (0 <= z)%Z -> Z_str z = NilZero.string_of_uint (N.to_uint (Z.to_N z)).
Proof. intros H. unfold Z_str. destruct (Z.ltb_spec z 0); [lia|reflexivity]. Qed.

Lemma Z_str_digits z : (0 <= z)%Z -> all_chars is_digit (Z_str z) = true.
Proof. intros H. rewrite Z_str_nonneg by exact H. apply nilzero_digits. Qed.

Lemma Z_str_inj a b : (0 <= a)%Z -> (0 <= b)%Z -> Z_str a = Z_str b -> a = b.
Proof.
  intros Ha Hb H. rewrite !Z_str_nonneg in H by assumption.
  assert (E : Some (N.to_uint (Z.to_N a)) = Some (N.to_uint (Z.to_N b))).
  { rewrite <- (NilZero.usu _ (N_to_uint_nonnil (Z.to_N a))), <- (NilZero.usu _ (N_to_uint_nonnil (Z.to_N b))).
    rewrite H. reflexivity. }
  injection E as E. apply DecimalN.Unsigned.to_uint_inj in E. lia.
Qed.

Lemma Z_str_nonempty z : (0 <= z)%Z -> Z_str z <> "".
Proof.
  intros H E. rewrite Z_str_nonneg in E by exact H.
  pose proof (NilZero.usu _ (N_to_uint_nonnil (Z.to_N z))) as U. rewrite E in U. discriminate.
Qed.
