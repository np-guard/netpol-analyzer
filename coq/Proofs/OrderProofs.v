(* C08, analysis part: the connection set of a pair of peers does not depend on the order in which the policies, their
   rules, peers, ports and policyTypes were written.  The pointwise semantics is invariant (s_allows_equiv); a computed
   set is that semantics (EvalProofs.all_conns_ok) in canonical form (ConnSetProofs.cs_ninv_ext), so two evaluations
   return the identical set. *)
From Coq Require Import List Bool Permutation.
From NP Require Import ConnSetProofs World Eval Spec EvalProofs Basics SpecProofs.
Import ListNotations.
Open Scope list_scope.
Open Scope Z_scope.

Definition rule_equiv (r r' : np_rule) : Prop :=
  Permutation (nr_peers r) (nr_peers r') /\ Permutation (nr_ports r) (nr_ports r').
Definition rules_equiv (l l' : list np_rule) : Prop := exists m, Permutation l m /\ Forall2 rule_equiv m l'.
Definition netpol_equiv (np np' : netpol) : Prop :=
  np_ns np = np_ns np' /\ np_sel np = np_sel np' /\ Permutation (np_types np) (np_types np') /\
  rules_equiv (np_in np) (np_in np') /\ rules_equiv (np_eg np) (np_eg np').
(* w_pods and w_nss are left free: with the two peers given, neither Spec.v nor Eval.v reads them *)
Definition world_equiv (w w' : world) : Prop :=
  (exists m, Permutation (w_nps w) m /\ Forall2 netpol_equiv m (w_nps w')) /\ w_anps w = w_anps w' /\ w_banp w = w_banp w'.

Lemma rule_equiv_same npns r r' other dst pr n : rule_equiv r r' -> s_np_rule npns r other dst pr n = s_np_rule npns r' other dst pr n.
Proof.
  intros [Hp Hq]. unfold s_np_rule, s_np_rule_peers, s_np_rule_ports. f_equal.
  - apply list_case_equiv; [apply perm_nil_iff, Hp|reflexivity|apply existsb_perm, Hp].
  - apply list_case_equiv; [apply perm_nil_iff, Hq|reflexivity|apply existsb_perm, Hq].
Qed.

Lemma netpol_equiv_governs np np' p d : netpol_equiv np np' -> s_np_governs np p d = s_np_governs np' p d.
Proof.
  intros (Hns & Hsel & Ht & _ & Heg). unfold s_np_governs, s_np_affects. rewrite Hns, Hsel. f_equal. f_equal.
  apply list_case_equiv; [apply perm_nil_iff, Ht| |apply existsb_perm, Ht].
  destruct d; [reflexivity|]. f_equal. apply list_case_equiv; [exact (equiv_nil_iff _ _ _ Heg)|reflexivity|reflexivity].
Qed.

Lemma netpol_equiv_allows np np' src dst ingress pr n :
  netpol_equiv np np' -> s_np_policy_allows np src dst ingress pr n = s_np_policy_allows np' src dst ingress pr n.
Proof.
  intros (Hns & _ & _ & Hin & Heg). unfold s_np_policy_allows. rewrite Hns.
  apply (existsb_equiv rule_equiv); [destruct ingress; assumption|]. intros r r' Hr. apply rule_equiv_same, Hr.
Qed.

Lemma s_np_layer_equiv w w' src dst ingress pr n :
  world_equiv w w' -> s_np_layer w src dst ingress pr n = s_np_layer w' src dst ingress pr n.
Proof.
  intros (Hnps & _ & _). rewrite !s_np_layer_eq. destruct (if ingress then dst else src) as [p _|]; [|reflexivity].
  apply (f_equal2 (fun governed allowed : bool => if governed then Some allowed else None));
    apply (existsb_equiv netpol_equiv _ _ _ _ Hnps); intros x y Hxy.
  - apply netpol_equiv_governs, Hxy.
  - rewrite (netpol_equiv_governs x y p _ Hxy), (netpol_equiv_allows x y src dst ingress pr n Hxy). reflexivity.
Qed.

Lemma s_allows_equiv w w' src dst pr n : world_equiv w w' -> s_allows w src dst pr n = s_allows w' src dst pr n.
Proof.
  intros H. pose proof H as (_ & Ha & Hb). unfold s_allows, s_dir_allows, s_banp_allows.
  rewrite !(s_np_layer_equiv w w' src dst _ pr n H), Ha, Hb. reflexivity.
Qed.

Theorem connection_independent_of_written_order w w' src dst c c' :
  world_equiv w w' -> peer_okb dst = true -> world_okb w = true -> world_okb w' = true ->
  all_conns w src dst = Ok c -> all_conns w' src dst = Ok c' -> c = c'.
Proof.
  intros Hs Hd Hw Hw' H H'.
  destruct (all_conns_ok w src dst c Hd Hw H) as [Hn Hden].
  destruct (all_conns_ok w' src dst c' Hd Hw' H') as [Hn' Hden'].
  apply (cs_ninv_ext c c' Hn Hn'). intros p n. rewrite Hden, Hden', (s_allows_equiv w w' src dst p n Hs). reflexivity.
Qed.

Definition same_but_policies (w w' : world) : Prop :=
  Permutation (w_nps w) (w_nps w') /\ w_anps w = w_anps w' /\ w_banp w = w_banp w'.

Lemma netpol_equiv_refl np : netpol_equiv np np.
Proof.
  assert (R : forall l, rules_equiv l l).
  { intros l. exists l. split; [reflexivity|]. apply forall2_diag. intros r. split; reflexivity. }
  repeat split; try apply R; reflexivity.
Qed.

Lemma same_but_policies_equiv w w' : same_but_policies w w' -> world_equiv w w'.
Proof.
  intros (Hp & Hab). split; [|exact Hab]. exists (w_nps w'). split; [exact Hp|apply forall2_diag, netpol_equiv_refl].
Qed.
