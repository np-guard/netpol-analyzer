(* What the pointwise diff checker decides, and the classification / merging steps of the diff mirror (Model/Diff.v),
   for C04. *)
From Coq Require Import List Bool.
From NP Require Import IntervalSet IntervalSetProofs ConnSet ConnSetProofs Connlist Diff.
Import ListNotations.
Open Scope list_scope.

Theorem diff_exact_b_spec es1 ps1 es2 ps2 d :
  diff_exact_b es1 ps1 es2 ps2 d = true ->
  forall s t, In s (pt_dedup (dpts ps1 ps2 d)) -> In t (pt_dedup (dpts ps1 ps2 d)) ->
    match s, t with
    | PA _, PA _ => d_covering d s t = []
    | _, _ => point_exact es1 ps1 es2 ps2 d s t = true
    end.
Proof.
  unfold diff_exact_b. intros H s t Hs Ht.
  rewrite forallb_forall in H. specialize (H s Hs). rewrite forallb_forall in H. specialize (H t Ht).
  destruct s, t; try exact H. destruct (d_covering d (PA a) (PA a0)); [reflexivity | discriminate].
Qed.

Theorem point_exact_meaning es1 ps1 es2 ps2 d s t :
  point_exact es1 ps1 es2 ps2 d s t = true ->
  match lookup_pt es1 s t, lookup_pt es2 s t with
  | None, None => d_covering d s t = []
  | c1, c2 =>
      exists e, d_covering d s t = [e] /\
        match c1, c2 with
        | Some a, Some b => de_type e = (if cs_struct_eqb a b then DUnchanged else DChanged) /\ de_c1 e = a /\ de_c2 e = b /\
                            de_src_flag e = false /\ de_dst_flag e = false
        | None, Some b => de_type e = DAdded /\ cs_isempty (de_c1 e) = true /\ de_c2 e = b /\
                          de_src_flag e = want_flag (workloads_of_peers ps1) s /\ de_dst_flag e = want_flag (workloads_of_peers ps1) t
        | Some a, None => de_type e = DRemoved /\ de_c1 e = a /\ cs_isempty (de_c2 e) = true /\
                          de_src_flag e = want_flag (workloads_of_peers ps2) s /\ de_dst_flag e = want_flag (workloads_of_peers ps2) t
        | None, None => False
        end
  end.
Proof.
  unfold point_exact.
  assert (T : forall a b, dtype_eqb a b = true -> a = b) by (intros [] []; cbn; congruence).
  assert (A : forall x1 x2 x3 x4 x5, x1 && x2 && x3 && x4 && x5 = true ->
                x1 = true /\ x2 = true /\ x3 = true /\ x4 = true /\ x5 = true).
  { intros x1 x2 x3 x4 x5 H. repeat (apply andb_prop in H; destruct H as [H ?]). auto. }
  destruct (lookup_pt es1 s t) as [a|], (lookup_pt es2 s t) as [b|], (d_covering d s t) as [|e [|e' l]];
    try discriminate; intros H; [| | |reflexivity];
    (exists e; split; [reflexivity|]); destruct (A _ _ _ _ _ H) as (H1 & H2 & H3 & H4 & H5); apply T in H1.
  - apply cs_struct_eqb_spec in H2, H3. apply negb_true_iff in H4, H5. auto.
  - apply cs_struct_eqb_spec in H2. apply eqb_prop in H4, H5. auto.
  - apply cs_struct_eqb_spec in H3. apply eqb_prop in H4, H5. auto.
Qed.

Theorem classify_both w1 w2 s t a b :
  classify w1 w2 (mkDP s t (Some a) (Some b)) =
  [mkDE s t a b (if cs_equal a b then DUnchanged else DChanged) false false].
Proof. reflexivity. Qed.

Theorem classify_equal_is_unchanged w1 w2 s t a :
  classify w1 w2 (mkDP s t (Some a) (Some a)) = [mkDE s t a a DUnchanged false false].
Proof. rewrite classify_both, (proj2 (cs_equal_spec a a) eq_refl). reflexivity. Qed.

Theorem merged_ranges_canonical ranges : canon (icanon_of ranges).
Proof. apply icanon_of_canon. Qed.
