(* Conflicting inputs are rejected whatever else the input contains and wherever the conflicting objects appear (C19):
   an insertion only ever adds to what the conflict checks read, so what the first object of a conflicting pair leaves
   behind is still there when the second arrives. *)
From Coq Require Import List ZArith Bool String.
From NP Require Import World Build Connlist Basics AbstractSort.
Import ListNotations.
Open Scope list_scope.
Open Scope Z_scope.

Lemma insert_objs_app e l r :
  insert_objs e (l ++ r) = (do e' <- insert_objs e l; insert_objs e' r).
Proof.
  revert e. induction l as [|o t IH]; intros e; cbn [insert_objs app bind]; [reflexivity|].
  destruct (insert_obj e o) as [e1|]; cbn [bind]; [apply IH | reflexivity].
Qed.

Fixpoint anps_of (os : list obj) : list anp :=
  match os with
  | [] => []
  | OAnp a :: t => a :: anps_of t
  | _ :: t => anps_of t
  end.

Lemma anps_of_app l r : anps_of (l ++ r) = anps_of l ++ anps_of r.
Proof. induction l as [|o t IH]; cbn; [reflexivity|]. destruct o; cbn; rewrite ?IH; reflexivity. Qed.

Lemma insert_obj_effect e o e' :
  insert_obj e o = Ok e' ->
  incl (e_anp_names e) (e_anp_names e') /\ incl (e_nps e) (e_nps e') /\
  (e_banp e <> None -> e_banp e' <> None) /\
  e_anps e' = e_anps e ++ anps_of [o].
Proof.
  intros H. destruct o as [n|np|pd|wl|a|b|]; cbn [insert_obj anps_of] in *; rewrite ?app_nil_r.
  - injection H as <-. auto using incl_refl.
  - (* a NetworkPolicy is appended to e_nps *)
    destruct (existsb _ (e_nps e)); [discriminate H|]. injection H as <-. cbn [e_nps]. auto using incl_refl, incl_appl.
  - destruct (negb (pd_has_ip pd)); [discriminate H|]. injection H as <-. auto using incl_refl.
  - injection H as <-. auto using incl_refl.
  - (* an ANP is appended to e_anps, its name put before e_anp_names *)
    destruct (str_mem _ _); [discriminate H|]. injection H as <-. cbn [e_anps e_anp_names]. auto using incl_refl, incl_tl.
  - (* a BANP fills the empty e_banp *)
    destruct (e_banp e); [discriminate H|]. destruct (String.eqb _ _); [|discriminate H]. injection H as <-. cbn [e_banp].
    repeat split; auto using incl_refl.
  - injection H as <-. auto using incl_refl.
Qed.

Lemma insert_objs_anps os : forall e e', insert_objs e os = Ok e' -> e_anps e' = e_anps e ++ anps_of os.
Proof.
  induction os as [|o t IH]; intros e e' H; cbn [insert_objs] in H.
  - injection H as <-. symmetry. apply app_nil_r.
  - bind_inv H as e1 Ho. apply insert_obj_effect in Ho. destruct Ho as (_ & _ & _ & Ho).
    rewrite (IH _ _ H), Ho, <- app_assoc. destruct o; reflexivity.
Qed.

Lemma build_world_ok os :
  is_ok (build_world os) = is_ok (insert_objs engine0 os) && is_ok (sort_anps (anps_of os)).
Proof.
  unfold build_world. destruct (insert_objs engine0 os) as [e|] eqn:He; cbn [bind is_ok andb]; [|reflexivity].
  rewrite (insert_objs_anps _ _ _ He). cbn [engine0 e_anps app]. destruct (sort_anps (anps_of os)); reflexivity.
Qed.

Lemma preserved_objs (P : engine -> Prop) :
  (forall e o e', P e -> insert_obj e o = Ok e' -> P e') ->
  forall os e e', P e -> insert_objs e os = Ok e' -> P e'.
Proof.
  intros Hstep. induction os as [|o t IH]; intros e e' Hp H; cbn [insert_objs] in H.
  - injection H as <-. exact Hp.
  - bind_inv H as e1 Ho. exact (IH _ _ (Hstep _ _ _ Hp Ho) H).
Qed.

Lemma two_conflict (P : engine -> Prop) o1 o2 :
  (forall e e', insert_obj e o1 = Ok e' -> P e') ->
  (forall e o e', P e -> insert_obj e o = Ok e' -> P e') ->
  (forall e, P e -> is_ok (insert_obj e o2) = false) ->
  forall l1 l2 l3 e, is_ok (insert_objs e (l1 ++ o1 :: l2 ++ o2 :: l3)) = false.
Proof.
  intros Hest Hpres Hfail l1 l2 l3 e.
  rewrite insert_objs_app. destruct (insert_objs e l1) as [e1|]; cbn [bind]; [|reflexivity].
  cbn [insert_objs]. destruct (insert_obj e1 o1) as [e2|] eqn:H1; cbn [bind]; [|reflexivity].
  rewrite insert_objs_app. destruct (insert_objs e2 l2) as [e3|] eqn:H2; cbn [bind]; [|reflexivity].
  cbn [insert_objs].
  pose proof (Hfail e3 (preserved_objs P Hpres _ _ _ (Hest _ _ H1) H2)) as F.
  destruct (insert_obj e3 o2); [discriminate F | reflexivity].
Qed.

Theorem dup_anp_name_rejected a1 a2 l1 l2 l3 :
  a_name a1 = a_name a2 ->
  is_ok (build_world (l1 ++ OAnp a1 :: l2 ++ OAnp a2 :: l3)) = false.
Proof.
  intros Hn. rewrite build_world_ok. apply andb_false_intro1.
  apply (two_conflict (fun e => str_mem (a_name a1) (e_anp_names e) = true)).
  - intros e e' H. cbn [insert_obj] in H. destruct (str_mem (a_name a1) (e_anp_names e)); [discriminate|].
    injection H as <-. cbn [e_anp_names str_mem]. rewrite String.eqb_refl. reflexivity.
  - intros e o e' Hp H. destruct (insert_obj_effect _ _ _ H) as (Hnames & _).
    apply str_mem_In, Hnames, str_mem_In, Hp.
  - intros e Hp. cbn [insert_obj]. rewrite <- Hn, Hp. reflexivity.
Qed.

Lemma np_default_ns_name np : np_name (np_default_ns np) = np_name np.
Proof. unfold np_default_ns. destruct (String.eqb (np_ns np) ""); reflexivity. Qed.

Theorem dup_netpol_name_rejected np1 np2 l1 l2 l3 :
  np_ns (np_default_ns np1) = np_ns (np_default_ns np2) -> np_name np1 = np_name np2 ->
  is_ok (build_world (l1 ++ ONetpol np1 :: l2 ++ ONetpol np2 :: l3)) = false.
Proof.
  intros Hns Hnm. rewrite build_world_ok. apply andb_false_intro1.
  set (same := fun q => String.eqb (np_ns q) (np_ns (np_default_ns np1)) && String.eqb (np_name q) (np_name np1)).
  apply (two_conflict (fun e => existsb same (e_nps e) = true)).
  - intros e e' H. cbn [insert_obj] in H. destruct (existsb _ (e_nps e)); [discriminate|].
    injection H as <-. cbn [e_nps]. rewrite existsb_app. cbn [existsb]. unfold same.
    rewrite np_default_ns_name, !String.eqb_refl. apply orb_true_r.
  - intros e o e' Hp H. destruct (insert_obj_effect _ _ _ H) as (_ & Hnps & _).
    exact (existsb_incl _ _ _ Hnps Hp).
  - intros e Hp. cbn [insert_obj]. rewrite np_default_ns_name, <- Hns, <- Hnm. fold same. rewrite Hp. reflexivity.
Qed.

Theorem second_banp_rejected b1 b2 l1 l2 l3 :
  is_ok (build_world (l1 ++ OBanp b1 :: l2 ++ OBanp b2 :: l3)) = false.
Proof.
  rewrite build_world_ok. apply andb_false_intro1.
  apply (two_conflict (fun e => e_banp e <> None)).
  - intros e e' H. cbn [insert_obj] in H. destruct (e_banp e); [discriminate|].
    destruct (String.eqb (b_name b1) "default"); [|discriminate]. injection H as <-. discriminate.
  - intros e o e' Hp H. destruct (insert_obj_effect _ _ _ H) as (_ & _ & Hb & _). exact (Hb Hp).
  - intros e Hp. cbn [insert_obj]. destruct (e_banp e); [reflexivity | contradiction].
Qed.

Theorem banp_name_rejected b l1 l2 :
  String.eqb (b_name b) "default" = false ->
  is_ok (build_world (l1 ++ OBanp b :: l2)) = false.
Proof.
  intros Hn. rewrite build_world_ok. apply andb_false_intro1. rewrite insert_objs_app.
  destruct (insert_objs engine0 l1) as [e1|]; cbn [bind]; [|reflexivity].
  cbn [insert_objs insert_obj]. destruct (e_banp e1); [reflexivity|]. rewrite Hn. reflexivity.
Qed.

Lemma sort_anps_ok_iff l :
  is_ok (sort_anps l) = negb (has_dup_prio l) && forallb (fun a => valid_priority (a_prio a)) l.
Proof. rewrite sort_anps_eq. destruct (has_dup_prio l), (forallb _ l); reflexivity. Qed.

Lemma has_dup_prio_in l1 a l2 b l3 :
  a_prio a = a_prio b -> has_dup_prio (l1 ++ a :: l2 ++ b :: l3) = true.
Proof.
  intros Heq. induction l1 as [|x t IH]; cbn [app has_dup_prio].
  - apply orb_true_iff. left. apply existsb_exists. exists b.
    split; [apply in_or_app; right; left; reflexivity | apply Z.eqb_eq, Heq].
  - rewrite IH. apply orb_true_r.
Qed.

Theorem same_priority_rejected a1 a2 l1 l2 l3 :
  a_prio a1 = a_prio a2 ->
  is_ok (build_world (l1 ++ OAnp a1 :: l2 ++ OAnp a2 :: l3)) = false.
Proof.
  intros Hp. rewrite build_world_ok. apply andb_false_intro2.
  rewrite sort_anps_ok_iff, anps_of_app. cbn [anps_of]. rewrite anps_of_app. cbn [anps_of].
  rewrite (has_dup_prio_in _ a1 _ a2 _ Hp). reflexivity.
Qed.

Theorem priority_out_of_range_rejected a l1 l2 :
  valid_priority (a_prio a) = false ->
  is_ok (build_world (l1 ++ OAnp a :: l2)) = false.
Proof.
  intros Hv. rewrite build_world_ok. apply andb_false_intro2.
  rewrite sort_anps_ok_iff, anps_of_app. cbn [anps_of]. rewrite forallb_app. cbn [forallb].
  rewrite Hv, andb_false_r. apply andb_false_r.
Qed.

(* C19: the converse *)
Theorem sort_anps_ok l :
  has_dup_prio l = false -> forallb (fun a => valid_priority (a_prio a)) l = true ->
  sort_anps l = Ok (sort_by_prio l).
Proof. intros Hd Hv. rewrite sort_anps_eq, Hd, Hv. reflexivity. Qed.

(* C19: pods of one owner with different labels are rejected when the report is computed *)
Theorem inconsistent_owner_rejected w focus hi :
  w_pods w <> [] -> owners_consistent (w_pods w) = false -> is_ok (list_world w focus hi) = false.
Proof.
  intros Hne Hc. unfold list_world. destruct (w_pods w); [contradiction|]. rewrite Hc. reflexivity.
Qed.

Lemma owners_consistent_false pods :
  owners_consistent pods = false ->
  exists p q, In p pods /\ In q pods /\ p_owner_name p <> ""%string /\
              p_ns q = p_ns p /\ p_owner_name q = p_owner_name p /\ labels_eq (p_labels p) (p_labels q) = false.
Proof.
  induction pods as [|p t IH]; cbn [owners_consistent]; [discriminate|].
  intros H. apply andb_false_iff in H. destruct H as [H | H].
  - apply orb_false_iff in H. destruct H as [Hown Hall].
    apply forallb_false_exists in Hall. destruct Hall as (q & Hin & Hq).
    apply orb_false_iff in Hq. destruct Hq as [Hk Hl].
    apply negb_false_iff, andb_true_iff in Hk. destruct Hk as [Hns Hon].
    apply String.eqb_eq in Hns, Hon. apply String.eqb_neq in Hown.
    exists p, q. repeat split; auto using in_eq, in_cons.
  - destruct (IH H) as (a & b & Ha & Hb & Hrest). exists a, b. auto using in_cons.
Qed.

Lemma insert_objs_nonanp_state os : forall e e',
  insert_objs e os = Ok e' -> True.
Proof. auto. Qed.
