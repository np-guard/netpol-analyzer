(* The pointwise semantics (Model/Spec.v) in the forms its proofs use, and the laws of its NetworkPolicy-only reading:
   additivity, locality and equivalence of spellings (C14).  The laws transfer to the computed reports through
   EvalProofs.all_conns_ok (C01). *)
From Coq Require Import List ZArith Bool String Lia.
From NP Require Import IntervalSet IntervalSetProofs ConnSet World Spec Basics.
Import ListNotations.
Open Scope list_scope.
Open Scope Z_scope.

(* The NetworkPolicy layer without the list of governing policies: what is proved about reordering, adding or replacing
   policies goes through this form. *)
Lemma s_np_layer_eq w src dst (ing : bool) pr n :
  s_np_layer w src dst ing pr n =
  match (if ing then dst else src) with
  | PIP _ => None
  | PPod p _ =>
      if existsb (fun np => s_np_governs np p (if ing then Ingress else Egress)) (w_nps w)
      then Some (existsb (fun np => s_np_governs np p (if ing then Ingress else Egress) &&
                                    s_np_policy_allows np src dst ing pr n) (w_nps w))
      else None
  end.
Proof.
  unfold s_np_layer. destruct (if ing then dst else src) as [p _|]; [|reflexivity].
  rewrite <- existsb_filter, existsb_filter_nil. destruct (filter _ (w_nps w)); reflexivity.
Qed.

Lemma s_np_only_dir_eq w src dst (ing : bool) pr n :
  s_np_only_dir w src dst ing pr n =
  match (if ing then dst else src) with
  | PIP _ => true
  | PPod p _ =>
      if existsb (fun np => s_np_governs np p (if ing then Ingress else Egress)) (w_nps w)
      then existsb (fun np => s_np_governs np p (if ing then Ingress else Egress) &&
                              s_np_policy_allows np src dst ing pr n) (w_nps w)
      else true
  end.
Proof.
  unfold s_np_only_dir. rewrite s_np_layer_eq.
  destruct (if ing then dst else src); [|reflexivity]. destruct (existsb _ (w_nps w)); reflexivity.
Qed.

(* What one admin policy says of a connection: the step of the scan over the ANPs, and, read as "not Deny", the
   whole of the BANP. *)
Definition s_admin_verdict (subj : admin_peer) (rules : list admin_rule) (src dst : peer) (ingress : bool)
                           (pr : proto) (n : Z) : verdict :=
  if s_admin_selects subj rules (if ingress then dst else src)
  then s_rules_verdict rules (if ingress then src else dst) dst pr n else VNone.

Lemma s_anps_verdict_cons a t src dst (ing : bool) pr n :
  s_anps_verdict (a :: t) src dst ing pr n =
  match s_admin_verdict (a_subject a) (if ing then a_in a else a_eg a) src dst ing pr n with
  | VNone => s_anps_verdict t src dst ing pr n
  | _ => s_admin_verdict (a_subject a) (if ing then a_in a else a_eg a) src dst ing pr n
  end.
Proof. reflexivity. Qed.

Lemma s_banp_allows_eq w src dst (ing : bool) pr n :
  s_banp_allows w src dst ing pr n =
  match w_banp w with
  | None => true
  | Some b => match s_admin_verdict (b_subject b) (if ing then b_in b else b_eg b) src dst ing pr n with
              | VDeny => false
              | _ => true
              end
  end.
Proof.
  unfold s_banp_allows, s_admin_verdict. destruct (w_banp w) as [b|]; [|reflexivity].
  destruct (s_admin_selects _ _ _); reflexivity.
Qed.

Definition with_nps (w : world) (nps : list netpol) : world :=
  mkWorld (w_nss w) (w_pods w) nps (w_anps w) (w_banp w).

Definition ble (a b : bool) : Prop := a = true -> b = true.

Lemma ble_refl a : ble a a.
Proof. intros H. exact H. Qed.

Lemma ble_andb a a' b b' : ble a a' -> ble b b' -> ble (a && b) (a' && b').
Proof. intros Ha Hb H. apply andb_prop in H. rewrite (Ha (proj1 H)), (Hb (proj2 H)). reflexivity. Qed.

Lemma ble_orb a a' b b' : ble a a' -> ble b b' -> ble (a || b) (a' || b').
Proof.
  intros Ha Hb H. apply orb_prop in H. destruct H as [H|H]; [rewrite (Ha H); reflexivity|rewrite (Hb H); apply orb_true_r].
Qed.

Lemma existsb_mono {A} (f g : A -> bool) l : (forall x, ble (f x) (g x)) -> ble (existsb f l) (existsb g l).
Proof. intros H. exact (existsb_impl f g l (fun x _ => H x)). Qed.

Lemma only_allows_ble w w' src dst pr n :
  (forall ing, ble (s_np_only_dir w src dst ing pr n) (s_np_only_dir w' src dst ing pr n)) ->
  ble (s_np_only_allows w src dst pr n) (s_np_only_allows w' src dst pr n).
Proof. intros D. apply ble_andb; apply D. Qed.

Theorem replace_policy_monotone w a np np' b src dst pr n :
  (forall p d, s_np_governs np' p d = s_np_governs np p d) ->
  (forall ing, ble (s_np_policy_allows np src dst ing pr n) (s_np_policy_allows np' src dst ing pr n)) ->
  ble (s_np_only_allows (with_nps w (a ++ np :: b)) src dst pr n)
      (s_np_only_allows (with_nps w (a ++ np' :: b)) src dst pr n).
Proof.
  intros Hgov Hmono. apply only_allows_ble. intros ing. rewrite !s_np_only_dir_eq. cbn [with_nps w_nps].
  destruct (if ing then dst else src) as [p _|]; [|apply ble_refl].
  rewrite !existsb_app. cbn [existsb]. rewrite (Hgov p).
  destruct (existsb _ a || _); [|apply ble_refl].
  apply ble_orb; [apply ble_refl|]. apply ble_orb; [|apply ble_refl]. apply ble_andb; [apply ble_refl|apply Hmono].
Qed.

Definition add_rule (np : netpol) (ingress : bool) (k : nat) (r : np_rule) : netpol :=
  if ingress
  then mkNetpol (np_ns np) (np_name np) (np_sel np) (np_types np) (firstn k (np_in np) ++ r :: skipn k (np_in np)) (np_eg np)
  else mkNetpol (np_ns np) (np_name np) (np_sel np) (np_types np) (np_in np) (firstn k (np_eg np) ++ r :: skipn k (np_eg np)).

Lemma add_rule_policy_mono np ing k r src dst d pr n :
  ble (s_np_policy_allows np src dst d pr n) (s_np_policy_allows (add_rule np ing k r) src dst d pr n).
Proof.
  unfold s_np_policy_allows, add_rule. destruct ing, d; cbn [np_in np_eg np_ns]; try apply ble_refl.
  all: rewrite existsb_insert; intros ->; apply orb_true_r.
Qed.

(* Adding a rule is monotone (C14) only where the direction is governed already: a first egress rule would bring
   Egress into the defaulted policyTypes, and the policy would start to restrict the egress of the pods it selects. *)
Lemma add_rule_governs np (ing : bool) k r p d :
  s_np_affects np (if ing then Ingress else Egress) = true ->
  s_np_governs (add_rule np ing k r) p d = s_np_governs np p d.
Proof.
  intros Ha. unfold s_np_governs, s_np_affects, add_rule in *.
  destruct ing; cbn [np_ns np_sel np_types np_eg] in *; [reflexivity|].
  destruct (np_types np); [|reflexivity]. destruct d; [reflexivity|].
  destruct (np_eg np); [discriminate Ha|]. destruct k; reflexivity.
Qed.

Definition self_pod (x : peer) : option pod := match x with PPod p _ => Some p | PIP _ => None end.

Theorem add_policy_on_governed_monotone w q src dst pr n :
  (forall p d, s_np_governs q p d = true -> existsb (fun np => s_np_governs np p d) (w_nps w) = true) ->
  ble (s_np_only_allows w src dst pr n) (s_np_only_allows (with_nps w (q :: w_nps w)) src dst pr n).
Proof.
  intros Hgov. apply only_allows_ble. intros ing. rewrite !s_np_only_dir_eq. cbn [with_nps w_nps existsb].
  destruct (if ing then dst else src) as [p _|]; [|apply ble_refl].
  destruct (s_np_governs q p _) eqn:Eq; cbn [orb andb]; [|apply ble_refl].
  rewrite (Hgov p _ Eq). intros ->. apply orb_true_r.
Qed.

Theorem add_policy_on_ungoverned_antitone w q src dst pr n :
  (forall p d, s_np_governs q p d = true -> existsb (fun np => s_np_governs np p d) (w_nps w) = false) ->
  ble (s_np_only_allows (with_nps w (q :: w_nps w)) src dst pr n) (s_np_only_allows w src dst pr n).
Proof.
  intros Hgov. apply only_allows_ble. intros ing. rewrite !s_np_only_dir_eq. cbn [with_nps w_nps existsb].
  destruct (if ing then dst else src) as [p _|]; [|apply ble_refl].
  destruct (s_np_governs q p _) eqn:Eq; cbn [orb andb]; [|apply ble_refl].
  rewrite (Hgov p _ Eq). intros _. reflexivity.
Qed.

Theorem add_policy_local w q src dst pr n :
  (forall p, self_pod src = Some p -> s_np_governs q p Egress = false) ->
  (forall p, self_pod dst = Some p -> s_np_governs q p Ingress = false) ->
  s_np_only_allows (with_nps w (q :: w_nps w)) src dst pr n = s_np_only_allows w src dst pr n.
Proof.
  intros Hs Hd. unfold s_np_only_allows. f_equal; rewrite !s_np_only_dir_eq; cbn [with_nps w_nps existsb].
  - destruct src as [p nsl|]; [|reflexivity]. rewrite (Hs p eq_refl). reflexivity.
  - destruct dst as [p nsl|]; [|reflexivity]. rewrite (Hd p eq_refl). reflexivity.
Qed.

Theorem matchLabels_vs_single_In k v m e l :
  sel_matches_raw (mkSel ((k, v) :: m) e) l = sel_matches_raw (mkSel m (mkReq k OpIn [v] :: e)) l.
Proof.
  unfold sel_matches_raw. cbn [s_match s_exprs forallb fst snd].
  set (fm := forallb _ m). set (fe := forallb _ e).
  unfold req_matches. cbn [r_op r_key r_vals].
  destruct (lookup k l) as [x|]; cbn [str_mem].
  - rewrite orb_false_r. destruct (String.eqb x v), fm, fe; reflexivity.
  - destruct fm, fe; reflexivity.
Qed.

Theorem range_split pr_ a m b dst pr n :
  a <= m < b ->
  s_np_port_matches (mkNpPort pr_ (PNum a) (Some b)) dst pr n =
  s_np_port_matches (mkNpPort pr_ (PNum a) (Some m)) dst pr n || s_np_port_matches (mkNpPort pr_ (PNum (m + 1)) (Some b)) dst pr n.
Proof.
  intros H. unfold s_np_port_matches. cbn [pp_proto pp_port pp_end].
  destruct (proto_eqb pr_ pr); cbn [andb]; [lia | reflexivity].
Qed.

Lemma np_peer_ip_point npns cidr exc a :
  s_np_peer_matches npns (NPIP cidr exc) (PIP (a, a)) = imem a (rule_block cidr exc).
Proof. apply isubset_point. Qed.

Lemma rule_block_mem cidr exc a : fst cidr <= snd cidr -> imem a (rule_block cidr exc) = in_ivl a cidr && negb (imem a exc).
Proof.
  intros H. unfold rule_block. rewrite isub_mem by (destruct cidr; apply ifull_canon; exact H).
  cbn [imem]. rewrite orb_false_r. reflexivity.
Qed.

Theorem cidr_split npns lo mid hi exc a :
  lo <= mid < hi ->
  s_np_peer_matches npns (NPIP (lo, hi) exc) (PIP (a, a)) =
  s_np_peer_matches npns (NPIP (lo, mid) exc) (PIP (a, a)) || s_np_peer_matches npns (NPIP (mid + 1, hi) exc) (PIP (a, a)).
Proof.
  intros H. rewrite !np_peer_ip_point, !rule_block_mem by (cbn [fst snd]; lia).
  rewrite <- andb_orb_distrib_l. f_equal. unfold in_ivl. cbn [fst snd]. lia.
Qed.

Theorem policy_split_same_selector ns nm nm' sel types i1 i2 e1 e2 src dst d pr n :
  s_np_policy_allows (mkNetpol ns nm sel types (i1 ++ i2) (e1 ++ e2)) src dst d pr n =
  s_np_policy_allows (mkNetpol ns nm sel types i1 e1) src dst d pr n || s_np_policy_allows (mkNetpol ns nm' sel types i2 e2) src dst d pr n.
Proof. unfold s_np_policy_allows. destruct d; cbn [np_in np_eg np_ns]; apply existsb_app. Qed.

(* the policyTypes that policyAffectsDirection (eval/internal/k8s/netpol.go) assumes when none are written *)
Definition default_types (np : netpol) : list dir :=
  Ingress :: match np_eg np with [] => [] | _ => [Egress] end.
Theorem explicit_vs_default_policyTypes ns nm sel i e d :
  s_np_affects (mkNetpol ns nm sel [] i e) d = s_np_affects (mkNetpol ns nm sel (default_types (mkNetpol ns nm sel [] i e)) i e) d.
Proof. unfold s_np_affects, default_types. cbn [np_types np_eg]. destruct d, e; reflexivity. Qed.
