(* The exposure analysis of Model/Exposure.v against the pointwise NetworkPolicy semantics of Model/Spec.v (C06, C07).
   Every connection set the analysis builds is described once by the port numbers and, on egress, the port names it
   holds ([cs_holds]); soundness reads the description in one direction and completeness in the other. *)
From Coq Require Import List ZArith Bool String.
From NP Require Import IntervalSet IntervalSetProofs ConnSet ConnSetProofs World Eval Spec EvalProofs
     Build Connlist ListProofs Exposure Basics.
Import ListNotations.
Open Scope list_scope.
Open Scope Z_scope.

(* labels.Requirement.Matches, on the canonical form of a requirement *)
Definition creq_holds (l : labels) (c : creq) : bool :=
  match cr_op c with
  | CEq => match cr_vals c, lookup (cr_key c) l with
           | [v], Some x => String.eqb x v
           | _, _ => false
           end
  | CIn => match lookup (cr_key c) l with Some x => str_mem x (cr_vals c) | None => false end
  | CNotIn => match lookup (cr_key c) l with Some x => negb (str_mem x (cr_vals c)) | None => true end
  | CExists => match lookup (cr_key c) l with Some _ => true | None => false end
  | CNotExists => match lookup (cr_key c) l with Some _ => false | None => true end
  end.

Lemma str_mem_insert x y l : str_mem x (str_insert y l) = String.eqb x y || str_mem x l.
Proof.
  induction l as [|z t IH]; cbn [str_insert str_mem]; [reflexivity|].
  destruct (String.leb y z); cbn [str_mem]; [reflexivity|]. rewrite IH.
  destruct (String.eqb x y), (String.eqb x z); reflexivity.
Qed.
Lemma str_mem_sort x l : str_mem x (str_sort l) = str_mem x l.
Proof.
  induction l as [|y t IH]; cbn [str_sort fold_right str_mem]; [reflexivity|].
  change (fold_right str_insert [] t) with (str_sort t). rewrite str_mem_insert, IH. reflexivity.
Qed.

Lemma creq_of_req_holds r l : creq_holds l (creq_of_req r) = req_matches r l.
Proof.
  unfold creq_of_req, req_matches, creq_holds. destruct (r_op r); cbn [cr_op cr_key cr_vals].
  - destruct (r_vals r) as [|v [|v2 t]]; cbn [cr_op cr_key cr_vals];
      destruct (lookup (r_key r) l) as [x|]; try reflexivity.
    + cbn [str_mem]. rewrite orb_false_r. reflexivity.
    + apply str_mem_sort.
  - destruct (lookup (r_key r) l) as [x|]; [|reflexivity]. rewrite str_mem_sort. reflexivity.
  - reflexivity.
  - reflexivity.
Qed.

Lemma forallb_creq_insert f x l : forallb f (creq_insert x l) = f x && forallb f l.
Proof.
  induction l as [|y t IH]; cbn [creq_insert forallb]; [reflexivity|].
  destruct (String.ltb (cr_key x) (cr_key y)); cbn [forallb]; [reflexivity|].
  rewrite IH. destruct (f x), (f y); reflexivity.
Qed.
Lemma forallb_fold_insert f L : forall acc,
  forallb f (fold_left (fun a x => creq_insert x a) L acc) = forallb f L && forallb f acc.
Proof.
  induction L as [|x t IH]; intros acc; cbn [fold_left forallb]; [reflexivity|].
  rewrite IH, forallb_creq_insert. destruct (f x), (forallb f t), (forallb f acc); reflexivity.
Qed.

Lemma sel_canon_holds s l : forallb (creq_holds l) (sel_canon s) = sel_matches_raw s l.
Proof.
  unfold sel_canon, sel_matches_raw. rewrite forallb_fold_insert. cbn [forallb]. rewrite andb_true_r.
  rewrite forallb_app. f_equal.
  - induction (s_match s) as [|[k v] t IH]; cbn [map forallb]; [reflexivity|]. rewrite IH. f_equal.
  - induction (s_exprs s) as [|r t IH]; cbn [map forallb]; [reflexivity|]. rewrite IH, creq_of_req_holds. reflexivity.
Qed.

(* strs_eqb is ConnSet's sset_eqb under another name *)
Lemma strs_eqb_eq a b : strs_eqb a b = true -> a = b.
Proof. exact (proj1 (sset_eqb_spec a b)). Qed.
Lemma creq_eqb_eq a b : creq_eqb a b = true -> a = b.
Proof.
  unfold creq_eqb. intros H. apply andb_true_iff in H. destruct H as [H H3]. apply andb_true_iff in H. destruct H as [H1 H2].
  apply String.eqb_eq in H1. apply strs_eqb_eq in H3. destruct a as [ka oa va], b as [kb ob vb]. cbn in *. subst.
  destruct oa, ob; try discriminate H2; reflexivity.
Qed.
Lemma creqs_eqb_eq a : forall b, creqs_eqb a b = true -> a = b.
Proof.
  induction a as [|x t IH]; intros [|y u] H; cbn [creqs_eqb] in H; try discriminate; [reflexivity|].
  apply andb_true_iff in H. destruct H as [H1 H2]. apply creq_eqb_eq in H1. subst y. f_equal. apply IH. exact H2.
Qed.
Lemma strs_eqb_refl a : strs_eqb a a = true.
Proof. exact (proj2 (sset_eqb_spec a a) eq_refl). Qed.
Lemma creqs_eqb_refl a : creqs_eqb a a = true.
Proof.
  induction a as [|x t IH]; cbn [creqs_eqb]; [reflexivity|]. rewrite IH, andb_true_r.
  unfold creq_eqb. rewrite String.eqb_refl, strs_eqb_refl. destruct (cr_op x); reflexivity.
Qed.

Lemma osel_canon_meaning a b l :
  creqs_eqb (osel_canon a) (osel_canon b) = true -> s_opt_sel a l true = s_opt_sel b l true.
Proof.
  intros H. apply creqs_eqb_eq in H.
  assert (G : forall o, s_opt_sel o l true = forallb (creq_holds l) (osel_canon o)).
  { intros [s|]; cbn [s_opt_sel osel_canon forallb]; [symmetry; apply sel_canon_holds|reflexivity]. }
  rewrite !G, H. reflexivity.
Qed.

(* C06: what a representative peer stands for *)
Theorem same_requirements_same_meaning a b l :
  creqs_eqb (sel_canon a) (sel_canon b) = true -> sel_matches_raw a l = sel_matches_raw b l.
Proof. exact (osel_canon_meaning (Some a) (Some b) l). Qed.

Lemma creq_insert_nonempty x l : creq_insert x l <> [].
Proof. destruct l as [|y t]; cbn [creq_insert]; [discriminate|]. destruct (String.ltb (cr_key x) (cr_key y)); discriminate. Qed.
Lemma fold_insert_nonempty L : forall acc, acc <> [] -> fold_left (fun a x => creq_insert x a) L acc <> [].
Proof. induction L as [|x t IH]; intros acc H; cbn [fold_left]; [exact H|]. apply IH. apply creq_insert_nonempty. Qed.
Lemma sel_canon_nil s : sel_canon s = [] -> sel_empty s = true.
Proof.
  unfold sel_canon, sel_empty. destruct (s_match s) as [|kv t]; cbn [map app].
  - destruct (s_exprs s) as [|r t]; [reflexivity|]. cbn [map fold_left]. intros H. exfalso.
    revert H. apply fold_insert_nonempty. apply creq_insert_nonempty.
  - cbn [fold_left]. intros H. exfalso. revert H. apply fold_insert_nonempty. apply creq_insert_nonempty.
Qed.

(* SelectorsFullMatch, when it answers *)
Definition sel_covers (s : selector) (rep : option selector) : bool :=
  sel_empty s || creqs_eqb (sel_canon s) (osel_canon rep).

Lemma full_match_ok s rep b : full_match s rep = Ok b -> b = sel_covers s rep.
Proof.
  unfold full_match, sel_covers. destruct (sel_valid s); cbn [negb]; [|discriminate].
  destruct (sel_empty s) eqn:Ee; [intros H; inversion H; reflexivity|]. cbn [orb].
  destruct rep as [r|]; cbn [osel_canon].
  - destruct (sel_valid r); intros H; inversion H. reflexivity.
  - intros H. inversion H. destruct (creqs_eqb (sel_canon s) []) eqn:Ek; [|reflexivity].
    apply creqs_eqb_eq, sel_canon_nil in Ek. rewrite Ek in Ee. discriminate Ee.
Qed.

Lemma sel_covers_sound s rep l : sel_covers s rep = true -> s_opt_sel rep l true = true -> sel_matches_raw s l = true.
Proof.
  unfold sel_covers. intros H Hl. apply orb_true_iff in H. destruct H as [H|H]; [apply sel_empty_raw; exact H|].
  rewrite <- Hl. exact (osel_canon_meaning (Some s) rep l H).
Qed.

(* ruleSelectsPeer on a representative peer, when it answers *)
Definition entry_sel (npns : string) (r : rep) (pr : np_peer) : bool :=
  match pr with
  | NPSel nss pods =>
      sel_covers (match nss with Some s => s | None => name_sel npns end) (Some (rp_nssel r))
      && match pods with Some s => sel_covers s (rp_podsel r) | None => true end
  | _ => false
  end.
Definition rule_selects (npns : string) (r : rep) (rl : np_rule) : bool :=
  match nr_peers rl with [] => true | peers => existsb (entry_sel npns r) peers end.

Lemma peers_select_rep_ok npns r peers : forall b,
  peers_select_rep npns peers r = Ok b -> b = existsb (entry_sel npns r) peers.
Proof.
  induction peers as [|pr t IH]; intros b H; cbn [peers_select_rep] in H; [inversion H; reflexivity|].
  cbn [existsb]. destruct pr as [nss pods | cidr exc | | | ]; try discriminate H; try exact (IH b H).
  cbn [entry_sel].
  replace (match nss with None => full_match (name_sel npns) (Some (rp_nssel r)) | Some s => full_match s (Some (rp_nssel r)) end)
    with (full_match (match nss with Some s => s | None => name_sel npns end) (Some (rp_nssel r))) in H by (destruct nss; reflexivity).
  bind_inv H as nsm Ens. apply full_match_ok in Ens. rewrite <- Ens.
  destruct nsm; cbn [negb andb orb] in *; [|exact (IH b H)].
  bind_inv H as pm Epm.
  assert (Hpm : pm = match pods with Some s => sel_covers s (rp_podsel r) | None => true end).
  { destruct pods as [s|]; [exact (full_match_ok _ _ _ Epm)|inversion Epm; reflexivity]. }
  rewrite <- Hpm. destruct pm; [inversion H; reflexivity|exact (IH b H)].
Qed.

Lemma rule_selects_rep_ok npns r rl b : rule_selects_rep npns (nr_peers rl) r = Ok b -> b = rule_selects npns r rl.
Proof.
  unfold rule_selects_rep, rule_selects. destruct (nr_peers rl) as [|pr t]; [intros H; inversion H; reflexivity|].
  apply peers_select_rep_ok.
Qed.

(* a pod the representative peer stands for; Kubernetes labels every namespace with its name (Build.ns_with_name_label) *)
Definition satisfies (hp : pod) (hnsl : labels) (r : rep) : Prop :=
  sel_matches_raw (rp_nssel r) hnsl = true /\ s_opt_sel (rp_podsel r) (p_labels hp) true = true /\
  lookup K8sNsNameLabelKey hnsl = Some (p_ns hp).

Lemma name_sel_matches ns l : sel_matches_raw (name_sel ns) l = true <-> lookup K8sNsNameLabelKey l = Some ns.
Proof.
  unfold name_sel, sel_matches_raw. cbn [s_match s_exprs forallb fst snd]. rewrite !andb_true_r.
  destruct (lookup K8sNsNameLabelKey l) as [v|]; [|split; discriminate].
  rewrite String.eqb_eq. split; [intros ->; reflexivity|intros H; inversion H; reflexivity].
Qed.

Lemma entry_sel_sound npns r pr hp hnsl :
  satisfies hp hnsl r -> entry_sel npns r pr = true -> s_np_peer_matches npns pr (PPod hp hnsl) = true.
Proof.
  intros (Hns & Hpod & Hname) H. destruct pr as [nss pods | | | | ]; try discriminate H.
  cbn [entry_sel s_np_peer_matches] in *. apply andb_true_iff in H. destruct H as [H1 H2]. apply andb_true_iff. split.
  - apply (sel_covers_sound _ _ hnsl) in H1; [|exact Hns]. destruct nss as [s|]; cbn [s_opt_sel]; [exact H1|].
    apply name_sel_matches in H1. rewrite Hname in H1. inversion H1. apply String.eqb_refl.
  - destruct pods as [s|]; cbn [s_opt_sel]; [|reflexivity]. exact (sel_covers_sound _ _ _ H2 Hpod).
Qed.

Lemma rule_selects_sound npns r rl hp hnsl :
  satisfies hp hnsl r -> rule_selects npns r rl = true -> s_np_rule_peers npns (nr_peers rl) (PPod hp hnsl) = true.
Proof.
  intros Hs. unfold rule_selects, s_np_rule_peers. destruct (nr_peers rl) as [|pr t]; [reflexivity|].
  apply existsb_impl. intros x _. apply entry_sel_sound. exact Hs.
Qed.

(* the peer that add_rep makes of a selector pair *)
Definition rep_of (policy_ns : string) (sp : option selector * option selector) : rep :=
  match fst sp with
  | None => mkRep policy_ns (name_sel policy_ns) (snd sp)
  | Some s => mkRep EmptyString s (snd sp)
  end.
Definition rep_valid (r : rep) : bool := sel_valid (rp_nssel r) && osel_valid (rp_podsel r).

Lemma rep_key_selected npns nss pods r0 hp hnsl :
  rep_key_eqb (rep_of npns (nss, pods)) r0 = true ->
  s_np_peer_matches npns (NPSel nss pods) (PPod hp hnsl) = true ->
  lookup K8sNsNameLabelKey hnsl = Some (p_ns hp) ->
  satisfies hp hnsl r0 /\ entry_sel npns r0 (NPSel nss pods) = true.
Proof.
  unfold rep_key_eqb. intros Hk Hm Hname. apply andb_true_iff in Hk. destruct Hk as [Kn Kp].
  cbn [s_np_peer_matches] in Hm. apply andb_true_iff in Hm. destruct Hm as [Mn Mp].
  replace (rp_podsel (rep_of npns (nss, pods))) with pods in Kp by (destruct nss; reflexivity).
  replace (rp_nssel (rep_of npns (nss, pods))) with (match nss with Some s => s | None => name_sel npns end) in Kn
    by (destruct nss; reflexivity).
  split; [split; [|split; [|exact Hname]]|].
  - rewrite <- (same_requirements_same_meaning _ _ hnsl Kn). destruct nss as [s|]; cbn [s_opt_sel] in Mn; [exact Mn|].
    apply name_sel_matches. apply String.eqb_eq in Mn. rewrite Mn. exact Hname.
  - rewrite <- (osel_canon_meaning pods (rp_podsel r0) (p_labels hp) Kp). exact Mp.
  - cbn [entry_sel]. unfold sel_covers. cbn [osel_canon]. rewrite Kn, orb_true_r. cbn [andb].
    destruct pods as [s|]; [|reflexivity]. cbn [osel_canon] in Kp. rewrite Kp. apply orb_true_r.
Qed.

Lemma matching_rep npns nss pods r0 hp hnsl :
  rep_valid (rep_of npns (nss, pods)) = true -> rep_valid r0 = true ->
  rep_key_eqb (rep_of npns (nss, pods)) r0 = true ->
  s_np_peer_matches npns (NPSel nss pods) (PPod hp hnsl) = true ->
  lookup K8sNsNameLabelKey hnsl = Some (p_ns hp) ->
  satisfies hp hnsl r0 /\
  forall peers b, In (NPSel nss pods) peers -> peers_select_rep npns peers r0 = Ok b -> b = true.
Proof.
  intros _ _ Hk Hm Hname. destruct (rep_key_selected npns nss pods r0 hp hnsl Hk Hm Hname) as [Hsat Hsel].
  split; [exact Hsat|]. intros peers b Hin H. rewrite (peers_select_rep_ok _ _ _ _ H).
  apply existsb_exists. exists (NPSel nss pods). split; [exact Hin|exact Hsel].
Qed.

Definition has_name (c : connset) (q : proto) (nm : string) : bool :=
  match cs_get c q with Some ps => sset_mem nm (ps_named ps) | None => false end.

(* how a rule refers to a port; only the destination pod can resolve a name *)
Inductive pref := ByNum (n : Z) | ByName (nm : string).

(* An all-connections set stores no names: a union that reaches all the connections drops them (every port they could
   stand for is in it).  On ingress names say nothing: they are resolved on the workload before anything is reported. *)
Definition cs_holds (ingress : bool) (c : connset) (U : proto -> pref -> bool) : Prop :=
  cs_wf c /\
  (forall q n, cs_denote c q n = valid_port n && U q (ByNum n)) /\
  (ingress = false -> forall q nm, has_name c q nm = negb (cs_all c) && U q (ByName nm)).

Lemma cs_holds_ext i c U V : (forall q y, U q y = V q y) -> cs_holds i c U -> cs_holds i c V.
Proof.
  intros E (W & Hn & Hm). split; [exact W|]. split; [intros q n; rewrite Hn, E; reflexivity|].
  intros Hi q nm. rewrite (Hm Hi), E. reflexivity.
Qed.

Lemma has_name_make b q nm : has_name (cs_make b) q nm = false.
Proof. unfold has_name. rewrite cs_get_make. reflexivity. Qed.

Lemma cs_holds_make_false i : cs_holds i (cs_make false) (fun _ _ => false).
Proof.
  split; [apply cs_make_wf|]. split; [intros q n; rewrite cs_make_false_denote, andb_false_r; reflexivity|].
  intros _ q nm. rewrite has_name_make. reflexivity.
Qed.
Lemma cs_holds_make_true i U : (forall q n, U q (ByNum n) = true) -> cs_holds i (cs_make true) U.
Proof.
  intros HU. split; [apply cs_make_wf|]. split; [intros q n; rewrite cs_make_denote, HU; reflexivity|].
  intros _ q nm. rewrite has_name_make. reflexivity.
Qed.

Lemma cs_holds_union i c o U V : cs_holds i c U -> cs_holds i o V -> cs_holds i (cs_union c o) (fun q y => U q y || V q y).
Proof.
  intros (Wc & Nc & Mc) (Wo & No & Mo). split; [apply cs_union_wf; assumption|]. split.
  - intros q n. rewrite cs_union_denote, Nc, No by assumption. symmetry. apply andb_orb_distrib_r.
  - intros Hi q nm. specialize (Mc Hi q nm). specialize (Mo Hi q nm). rewrite cs_union_eq.
    destruct (cs_all c) eqn:Eac; cbn [orb negb andb] in *; [rewrite Eac; exact Mc|].
    destruct (cs_isempty o) eqn:Eeo.
    + rewrite Eac, Mc. apply cs_isempty_spec in Eeo. destruct Eeo as [Eao Eno].
      unfold has_name in Mo. rewrite Eno, Eao in Mo. cbn [negb andb] in *. rewrite <- Mo, orb_false_r. reflexivity.
    + destruct (cs_all o) eqn:Eao; [apply has_name_make|]. cbn [negb andb] in Mo.
      unfold cs_check_all. destruct (cs_is_all_without_allowall _); [apply has_name_make|].
      rewrite cs_all_map, Eac, <- Mc, <- Mo. unfold has_name. rewrite cs_get_map.
      destruct (cs_get c q) as [a|], (cs_get o q) as [b|]; cbn [union_entry negb andb orb]; try reflexivity.
      * apply ps_union_named.
      * rewrite orb_false_r. reflexivity.
Qed.

Lemma fold_union_holds {A} i (f : A -> connset) (U : A -> proto -> pref -> bool) l : forall acc U0,
  cs_holds i acc U0 -> (forall x, In x l -> cs_holds i (f x) (U x)) ->
  cs_holds i (fold_left (fun a x => cs_union a (f x)) l acc) (fun q y => U0 q y || existsb (fun x => U x q y) l).
Proof.
  induction l as [|x t IH]; intros acc U0 Hacc Hf; cbn [fold_left].
  - revert Hacc. apply cs_holds_ext. intros q y. symmetry. apply orb_false_r.
  - assert (Hx : cs_holds i (f x) (U x)) by (apply Hf; left; reflexivity).
    generalize (IH _ _ (cs_holds_union _ _ _ _ _ Hacc Hx) (fun z Hz => Hf z (or_intror Hz))).
    apply cs_holds_ext. intros q y. cbn [existsb]. symmetry. apply orb_assoc.
Qed.

(* s_np_port_matches split by how the port is given: ruleConnections with a nil dst keeps names as names *)
Definition num_port_matches (pp : np_port) (pr : proto) (n : Z) : bool :=
  proto_eqb (pp_proto pp) pr &&
  match pp_port pp with
  | PAll => true
  | PNum a => (a <=? n) && (n <=? match pp_end pp with Some e => e | None => a end)
  | PName _ => false
  end.
Definition num_rule_ports (ports : list np_port) (pr : proto) (n : Z) : bool :=
  match ports with [] => true | _ => existsb (fun pp => num_port_matches pp pr n) ports end.

Definition named_port_of (pp : np_port) (q : proto) (nm : string) : bool :=
  proto_eqb (pp_proto pp) q && match pp_port pp with PName x => String.eqb nm x | _ => false end.
Definition named_rule_ports (ports : list np_port) (q : proto) (nm : string) : bool :=
  existsb (fun pp => named_port_of pp q nm) ports.

(* on egress the destination is the other pod, whose named ports are not known: the numbered ports only *)
Definition pmatch (real : peer) (ingress : bool) (rl : np_rule) (pr : proto) (n : Z) : bool :=
  if ingress then s_np_rule_ports (nr_ports rl) real pr n else num_rule_ports (nr_ports rl) pr n.

(* what ruleConnections(rulePorts, nil) holds *)
Definition nodst_has (ports : list np_port) (q : proto) (y : pref) : bool :=
  match y with ByNum n => num_rule_ports ports q n | ByName nm => named_rule_ports ports q nm end.
Definition rule_has (real : peer) (ingress : bool) (rl : np_rule) (q : proto) (y : pref) : bool :=
  match y with ByNum n => pmatch real ingress rl q n | ByName nm => named_rule_ports (nr_ports rl) q nm end.

Lemma num_rule_ports_any ports dst pr n : num_rule_ports ports pr n = true -> s_np_rule_ports ports dst pr n = true.
Proof.
  unfold num_rule_ports, s_np_rule_ports. destruct ports as [|pp t]; [reflexivity|]. apply existsb_impl. intros x _.
  unfold num_port_matches, s_np_port_matches. destruct (proto_eqb (pp_proto x) pr); [|discriminate]. cbn [andb].
  destruct (pp_port x); [reflexivity|exact (fun H => H)|discriminate].
Qed.

Lemma rule_ports_pod ports p nsl q n :
  s_np_rule_ports ports (PPod p nsl) q n = true <->
  num_rule_ports ports q n = true \/
  exists nm, named_rule_ports ports q nm = true /\ pod_named_port (p_ports p) nm = Some (q, n).
Proof.
  split.
  - unfold s_np_rule_ports, num_rule_ports, named_rule_ports. destruct ports as [|pp0 t]; [left; reflexivity|].
    rewrite !existsb_exists. intros (pp & Hin & H). unfold s_np_port_matches in H. apply andb_true_iff in H. destruct H as [Hq H].
    destruct (pp_port pp) as [|a|nm] eqn:Ep.
    + left. exists pp. unfold num_port_matches. rewrite Hq, Ep. split; [exact Hin|reflexivity].
    + left. exists pp. unfold num_port_matches. rewrite Hq, Ep. split; [exact Hin|exact H].
    + right. exists nm. destruct (pod_named_port (p_ports p) nm) as [[q' m]|]; [|discriminate H].
      apply andb_true_iff in H. destruct H as [Hq' Hm]. apply proto_eqb_eq in Hq, Hq'. apply Z.eqb_eq in Hm. subst q' m.
      split; [|rewrite Hq; reflexivity]. apply existsb_exists. exists pp. split; [exact Hin|].
      unfold named_port_of. rewrite Ep, Hq, proto_eqb_refl, String.eqb_refl. reflexivity.
  - intros [H|(nm & H & Hd)]; [apply num_rule_ports_any; exact H|].
    unfold named_rule_ports, s_np_rule_ports in *. destruct ports as [|pp0 t]; [reflexivity|].
    revert H. apply existsb_impl. intros pp _ H. unfold named_port_of in H. apply andb_true_iff in H. destruct H as [Hq H].
    unfold s_np_port_matches. rewrite Hq. destruct (pp_port pp) as [|a|x]; try discriminate H.
    apply String.eqb_eq in H. subst x. apply proto_eqb_eq in Hq. rewrite Hd, Hq, proto_eqb_refl, Z.eqb_refl. reflexivity.
Qed.

Lemma has_name_addconn c p ps q nm :
  has_name (cs_addconn c p ps) q nm = has_name c q nm || (proto_eqb p q && sset_mem nm (ps_named ps)).
Proof.
  unfold cs_addconn, has_name. destruct (ps_isempty ps) eqn:Ee.
  - unfold ps_isempty in Ee. apply andb_true_iff in Ee. destruct Ee as [_ Ee].
    destruct (ps_named ps); [|discriminate Ee]. cbn [sset_mem]. rewrite andb_false_r, orb_false_r. reflexivity.
  - destruct (cs_get c p) as [mine|] eqn:E; rewrite cs_get_set; destruct (proto_eqb p q) eqn:Epq; cbn [andb];
      rewrite ?orb_false_r; try reflexivity; apply proto_eqb_eq in Epq; subst q; rewrite E; [apply ps_union_named|reflexivity].
Qed.

(* the port set that ports_conns_nodst adds for one port of a rule *)
Definition port_ps (pp : np_port) : portset :=
  match pp_port pp with
  | PAll => ps_make true
  | PName nm => ps_add_named (ps_make false) nm
  | PNum n => ps_add_range (ps_make false) n (match pp_end pp with Some e => e | None => n end)
  end.

Lemma port_ps_ok pp : np_port_okb pp = true ->
  ps_wf (port_ps pp) /\
  (forall pr n, proto_eqb (pp_proto pp) pr && imem n (ps_ports (port_ps pp)) = valid_port n && num_port_matches pp pr n) /\
  (forall q nm, proto_eqb (pp_proto pp) q && sset_mem nm (ps_named (port_ps pp)) = named_port_of pp q nm).
Proof.
  unfold np_port_okb, port_ps, num_port_matches, named_port_of. intros Hok. destruct (pp_port pp) as [|a|x].
  - split; [apply ps_make_wf|]. split; [|reflexivity]. intros pr n. rewrite ps_full_mem.
    destruct (proto_eqb (pp_proto pp) pr), (valid_port n); reflexivity.
  - split; [apply range_ok_wf; exact Hok|]. split; [|reflexivity]. intros pr n. rewrite range_mem.
    destruct (proto_eqb (pp_proto pp) pr); cbn [andb]; [|rewrite andb_false_r; reflexivity].
    destruct ((a <=? n) && (n <=? match pp_end pp with Some e => e | None => a end)) eqn:Hin.
    + rewrite (range_ok_valid _ _ n Hok Hin). reflexivity.
    + rewrite andb_false_r. reflexivity.
  - split; [apply (ps_make_wf false)|]. split.
    + intros pr n. cbn [ps_add_named ps_make ps_ports imem]. rewrite !andb_false_r. reflexivity.
    + intros q nm. cbn [ps_add_named ps_make ps_named sset_add sset_mem]. rewrite orb_false_r. reflexivity.
Qed.

Lemma ports_nodst_ok ports : forall res,
  cs_wf res -> forallb np_port_okb ports = true ->
  let c := ports_conns_nodst ports res in
  cs_wf c /\ cs_all c = cs_all res /\
  (forall pr n, cs_denote c pr n
                = cs_denote res pr n || (valid_port n && existsb (fun pp => num_port_matches pp pr n) ports)) /\
  (forall q nm, has_name c q nm = has_name res q nm || named_rule_ports ports q nm).
Proof.
  unfold named_rule_ports. induction ports as [|pp t IH]; intros res Hres Hok; cbn zeta.
  - cbn [ports_conns_nodst existsb]. split; [exact Hres|]. split; [reflexivity|].
    split; intros; rewrite ?andb_false_r, orb_false_r; reflexivity.
  - cbn [forallb] in Hok. apply andb_true_iff in Hok. destruct Hok as [Hpp Ht].
    destruct (port_ps_ok pp Hpp) as (Hwf & Hmem & Hnm).
    change (ports_conns_nodst (pp :: t) res) with (ports_conns_nodst t (cs_addconn res (pp_proto pp) (port_ps pp))).
    destruct (IH _ (cs_addconn_wf res (pp_proto pp) _ Hres Hwf) Ht) as (I1 & I2 & I3 & I4). cbn zeta in *.
    split; [exact I1|]. split; [rewrite I2; apply cs_addconn_all|]. split.
    + intros pr n. rewrite I3, cs_addconn_denote, Hmem by assumption. cbn [existsb].
      destruct (cs_denote res pr n), (valid_port n), (num_port_matches pp pr n); reflexivity.
    + intros q nm. rewrite I4, has_name_addconn, Hnm. cbn [existsb]. symmetry. apply orb_assoc.
Qed.

Lemma rule_conns_nodst_ok ports :
  forallb np_port_okb ports = true -> cs_holds false (rule_conns_nodst ports) (nodst_has ports).
Proof.
  unfold rule_conns_nodst, nodst_has, num_rule_ports. intros Hok. destruct ports as [|pp t].
  - apply cs_holds_make_true. reflexivity.
  - destruct (ports_nodst_ok (pp :: t) (cs_make false) (cs_make_wf false) Hok) as (H1 & H2 & H3 & H4). cbn zeta in *.
    split; [exact H1|]. split.
    + intros q n. rewrite H3, cs_make_false_denote. reflexivity.
    + intros _ q nm. rewrite H4, H2, has_name_make. reflexivity.
Qed.

(* what getSelectorsAndUpdateExposureClusterWideConns (scan_rule) does with one rule: its connections go to pe_ext when
   no_peers, to pe_cw when opens; otherwise its selector pairs rule_pairs are kept *)
Definition no_peers (rl : np_rule) : bool := match nr_peers rl with [] => true | _ => false end.
Definition opens (rl : np_rule) : bool :=
  match nr_peers rl with
  | [] => true
  | peers => match scan_entries peers [] with None => true | Some _ => false end
  end.
Definition rule_pairs (rl : np_rule) : list (option selector * option selector) :=
  match nr_peers rl with
  | [] => []
  | peers => match scan_entries peers [] with Some l => l | None => [] end
  end.

Definition dir_rules (np : netpol) (ingress : bool) : list np_rule := if ingress then np_in np else np_eg np.
Definition dir_of (ingress : bool) : dir := if ingress then Ingress else Egress.

Definition scan_part (P : np_rule -> bool) (rules : list np_rule) : connset :=
  fold_left (fun a rl => cs_union a (if P rl then rule_conns_nodst (nr_ports rl) else cs_make false)) rules (cs_make false).

Lemma scan_rule_eq e rl :
  scan_rule e rl = mkPE (cs_union (pe_ext e) (if no_peers rl then rule_conns_nodst (nr_ports rl) else cs_make false))
                        (cs_union (pe_cw e) (if opens rl then rule_conns_nodst (nr_ports rl) else cs_make false))
                        (pe_sels e ++ rule_pairs rl).
Proof.
  unfold scan_rule, no_peers, opens, rule_pairs.
  destruct (nr_peers rl) as [|p0 pt]; [|destruct (scan_entries (p0 :: pt) [])]; rewrite ?cs_union_empty_r, ?app_nil_r; reflexivity.
Qed.

Lemma scan_fold_eq rules :
  fold_left scan_rule rules pol_exp0 = mkPE (scan_part no_peers rules) (scan_part opens rules) (flat_map rule_pairs rules).
Proof.
  induction rules as [|rl t IH] using rev_ind; [reflexivity|].
  unfold scan_part. rewrite !fold_left_app, flat_map_app. cbn [fold_left flat_map]. rewrite IH, scan_rule_eq, app_nil_r. reflexivity.
Qed.

Lemma scan_dir_on np ingress : np_affects np (dir_of ingress) = true ->
  scan_dir np (dir_of ingress)
  = mkPE (scan_part no_peers (dir_rules np ingress)) (scan_part opens (dir_rules np ingress)) (flat_map rule_pairs (dir_rules np ingress)).
Proof. intros Ha. unfold scan_dir. rewrite Ha. destruct ingress; apply scan_fold_eq. Qed.
Lemma scan_dir_off np d : np_affects np d = false -> scan_dir np d = pol_exp0.
Proof. intros Ha. unfold scan_dir. rewrite Ha. reflexivity. Qed.

Lemma scan_part_all_canon P rules : all_canon (scan_part P rules).
Proof. apply fold_union_all_canon. discriminate. Qed.

Lemma scan_dir_all_canon np d : all_canon (pe_ext (scan_dir np d)) /\ all_canon (pe_cw (scan_dir np d)).
Proof.
  unfold scan_dir. destruct (np_affects np d); [|split; discriminate].
  rewrite scan_fold_eq. split; apply scan_part_all_canon.
Qed.

Lemma scan_part_ok P rules : forallb np_rule_okb rules = true ->
  cs_holds false (scan_part P rules) (fun q y => existsb (fun rl => P rl && nodst_has (nr_ports rl) q y) rules).
Proof.
  intros Hok. rewrite forallb_forall in Hok.
  apply (fold_union_holds false _ (fun rl q y => P rl && nodst_has (nr_ports rl) q y) rules _ _ (cs_holds_make_false false)).
  intros rl Hrl. destruct (P rl); [apply rule_conns_nodst_ok, Hok, Hrl|apply cs_holds_make_false].
Qed.

Lemma scan_part_all P rules q n : forallb np_rule_okb rules = true ->
  cs_all (scan_part P rules) = true -> valid_port n = true ->
  existsb (fun rl => P rl && num_rule_ports (nr_ports rl) q n) rules = true.
Proof.
  intros Hok Ha Hv. destruct (scan_part_ok P rules Hok) as (_ & Hn & _). specialize (Hn q n).
  rewrite (cs_all_denote _ q n Ha), Hv in Hn. symmetry. exact Hn.
Qed.

(* scan_entries gives up (None) at an entry that opens the whole cluster: such an entry matches every pod *)
Lemma scan_entries_none npns peers x : forall acc,
  scan_entries peers acc = None -> peer_is_ip x = false ->
  existsb (fun pr => s_np_peer_matches npns pr x) peers = true.
Proof.
  induction peers as [|pr t IH]; intros acc H Hx; cbn [scan_entries] in H; [discriminate H|].
  cbn [existsb]. apply orb_true_iff.
  destruct pr as [nss pods | cidr exc | | | ]; cbn [entry_selectors] in H; try (right; exact (IH _ H Hx)).
  destruct (opens_cluster nss pods) eqn:Eo; [left|right; exact (IH _ H Hx)].
  destruct x as [p nsl | b]; [|discriminate Hx]. cbn [s_np_peer_matches].
  unfold opens_cluster in Eo. destruct nss as [s|]; [|discriminate Eo]. apply andb_true_iff in Eo. destruct Eo as [E1 E2].
  cbn [s_opt_sel]. rewrite (sel_empty_raw s nsl E1). cbn [andb].
  destruct pods as [ps|]; cbn [s_opt_sel]; [apply sel_empty_raw; exact E2|reflexivity].
Qed.

Lemma opens_matches npns rl x : opens rl = true -> peer_is_ip x = false -> s_np_rule_peers npns (nr_peers rl) x = true.
Proof.
  unfold opens, s_np_rule_peers. destruct (nr_peers rl) as [|p0 pt]; [reflexivity|]. intros H Hx.
  destruct (scan_entries (p0 :: pt) []) as [l|] eqn:E; [discriminate H|].
  apply (scan_entries_none npns (p0 :: pt) x [] E Hx).
Qed.
Lemma no_peers_matches npns rl x : no_peers rl = true -> s_np_rule_peers npns (nr_peers rl) x = true.
Proof. unfold no_peers, s_np_rule_peers. destruct (nr_peers rl); [reflexivity|discriminate]. Qed.
Lemma no_peers_opens rl : no_peers rl = true -> opens rl = true.
Proof. unfold no_peers, opens. destruct (nr_peers rl); [reflexivity|discriminate]. Qed.

Definition resolves (p : pod) (q : proto) (nm : string) (n : Z) : bool :=
  match pod_named_port (p_ports p) nm with
  | Some (pr', m) => proto_eqb pr' q && negb (m =? NoPort) && (m =? n)
  | None => false
  end.

Lemma resolves_iff p q nm n : pod_okb p = true ->
  (resolves p q nm n = true <-> pod_named_port (p_ports p) nm = Some (q, n)).
Proof.
  intros Hp. unfold resolves. destruct (pod_named_port (p_ports p) nm) as [[q' m]|] eqn:E; [|split; discriminate].
  rewrite !andb_true_iff, proto_eqb_eq, Z.eqb_eq, (valid_port_not_noport m (pod_named_port_valid p nm q' m Hp E)).
  split; [intros [[-> _] ->]; reflexivity|intros H; inversion H; auto].
Qed.

Definition has_proto (c : connset) (q : proto) : bool := match cs_get c q with Some _ => true | None => false end.

(* what the conversion of named ports does to a set: it only adds ports, and only to protocols that have an entry *)
Definition grows (c c' : connset) (F : proto -> Z -> bool) : Prop :=
  cs_wf c' /\ cs_all c' = cs_all c /\ (forall q, has_proto c' q = has_proto c q) /\
  forall pr n, cs_denote c' pr n = cs_denote c pr n || (valid_port n && negb (cs_all c) && F pr n).

Lemma grows_refl c : cs_wf c -> grows c c (fun _ _ => false).
Proof.
  intros W. split; [exact W|]. split; [reflexivity|]. split; [reflexivity|]. intros pr n. rewrite andb_false_r, orb_false_r. reflexivity.
Qed.
Lemma grows_ext c c' F G : (forall pr n, F pr n = G pr n) -> grows c c' F -> grows c c' G.
Proof. intros E (H1 & H2 & H3 & H4). split; [exact H1|]. split; [exact H2|]. split; [exact H3|]. intros pr n. rewrite H4, E. reflexivity. Qed.

(* [F] takes the set: what a step adds depends on which protocols have an entry *)
Lemma grows_fold {A} (step : connset -> A -> connset) (F : connset -> A -> proto -> Z -> bool) l :
  (forall c x, cs_wf c -> grows c (step c x) (F c x)) ->
  (forall c c' x pr n, (forall q, has_proto c' q = has_proto c q) -> F c' x pr n = F c x pr n) ->
  forall c, cs_wf c -> grows c (fold_left step l c) (fun pr n => existsb (fun x => F c x pr n) l).
Proof.
  intros Hstep Hst. induction l as [|x t IH]; intros c W; cbn [fold_left existsb]; [exact (grows_refl c W)|].
  destruct (Hstep c x W) as (S1 & S2 & S3 & S4). destruct (IH _ S1) as (I1 & I2 & I3 & I4).
  split; [exact I1|]. split; [rewrite I2; exact S2|]. split; [intros q; rewrite I3; apply S3|].
  intros pr n. rewrite I4, S4, S2. rewrite (existsb_ext _ (fun y => F c y pr n)) by (intros y; apply Hst, S3).
  destruct (cs_denote c pr n), (valid_port n && negb (cs_all c)); reflexivity.
Qed.

Lemma cs_replace_named_ok c q nm m :
  cs_wf c -> m = NoPort \/ valid_port m = true ->
  grows c (cs_replace_named c q nm m) (fun pr n => has_proto c q && proto_eqb q pr && negb (m =? NoPort) && (m =? n)).
Proof.
  intros Hw Hm. unfold cs_replace_named, has_proto. destruct (cs_get c q) as [ps|] eqn:Eps; [|exact (grows_refl c Hw)].
  set (ps1 := if m =? NoPort then ps else ps_add_num ps m).
  assert (Hps1 : ps_wf ps1 /\ forall n, imem n (ps_ports ps1) = imem n (ps_ports ps) || (negb (m =? NoPort) && (m =? n))).
  { unfold ps1. destruct (m =? NoPort) eqn:Em.
    - split; [exact (Hw q ps Eps)|]. intros n. symmetry. apply orb_false_r.
    - destruct Hm as [Hm|Hm]; [rewrite Hm in Em; discriminate Em|].
      split; [apply ps_add_num_wf; [exact (Hw q ps Eps)|exact Hm]|]. intros n. apply ps_add_num_mem, (Hw q ps Eps). }
  destruct Hps1 as [Hw1 Hm1]. split; [|split; [apply cs_all_set|split]].
  - intros q' x Hx. rewrite cs_get_set in Hx. destruct (proto_eqb q q'); [|exact (Hw q' x Hx)].
    inversion Hx; subst x. exact Hw1.
  - intros q'. unfold has_proto. rewrite cs_get_set. destruct (proto_eqb q q') eqn:Eq; [|reflexivity].
    apply proto_eqb_eq in Eq. subst q'. rewrite Eps. reflexivity.
  - intros pr n. rewrite !cs_denote_eq, cs_all_set, cs_get_set. destruct (proto_eqb q pr) eqn:Eq.
    + apply proto_eqb_eq in Eq. subst pr. rewrite Eps. cbn [opt_mem ps_drop_named ps_ports]. rewrite Hm1.
      destruct (valid_port n), (cs_all c); reflexivity.
    + destruct (valid_port n), (cs_all c); cbn [negb andb]; rewrite orb_false_r; reflexivity.
Qed.

(* the body of convert_named's inner loop *)
Definition conv_step (p : pod) (q : proto) (acc : connset) (nm : string) : connset :=
  match pod_named_port (p_ports p) nm with
  | Some (pr, n) => if proto_eqb pr q && negb (n =? NoPort)
                    then cs_replace_named acc q nm n
                    else cs_replace_named acc q nm NoPort
  | None => cs_replace_named acc q nm NoPort
  end.

Lemma conv_step_ok p q acc nm :
  pod_okb p = true -> cs_wf acc ->
  grows acc (conv_step p q acc nm) (fun pr n => has_proto acc q && proto_eqb q pr && resolves p q nm n).
Proof.
  intros Hp Hw. unfold conv_step, resolves. destruct (pod_named_port (p_ports p) nm) as [[pr' m]|] eqn:Enp.
  - destruct (proto_eqb pr' q && negb (m =? NoPort)) eqn:Ec.
    + generalize (cs_replace_named_ok acc q nm m Hw (or_intror (pod_named_port_valid p nm pr' m Hp Enp))).
      apply grows_ext. intros pr n. apply andb_true_iff in Ec. rewrite (proj2 Ec), andb_true_r. reflexivity.
    + generalize (cs_replace_named_ok acc q nm NoPort Hw (or_introl eq_refl)).
      apply grows_ext. intros pr n. change (negb (NoPort =? NoPort)) with false. rewrite !andb_false_r. reflexivity.
  - generalize (cs_replace_named_ok acc q nm NoPort Hw (or_introl eq_refl)).
    apply grows_ext. intros pr n. change (negb (NoPort =? NoPort)) with false. rewrite !andb_false_r. reflexivity.
Qed.

Definition pn_resolves (p : pod) (c : connset) (pn : proto * list string) (pr : proto) (n : Z) : bool :=
  has_proto c (fst pn) && proto_eqb (fst pn) pr && existsb (fun nm => resolves p (fst pn) nm n) (snd pn).

Lemma conv_names_ok p pn c :
  pod_okb p = true -> cs_wf c -> grows c (fold_left (conv_step p (fst pn)) (snd pn) c) (pn_resolves p c pn).
Proof.
  intros Hp W. refine (grows_ext _ _ _ _ (fun pr n => existsb_and_const _ _ _) _).
  apply (grows_fold (conv_step p (fst pn)) (fun c nm pr n => has_proto c (fst pn) && proto_eqb (fst pn) pr && resolves p (fst pn) nm n));
    [|intros a a' nm pr n E; rewrite E; reflexivity|exact W].
  intros a nm Wa. exact (conv_step_ok p (fst pn) a nm Hp Wa).
Qed.

Definition conv_all (p : pod) (l : list (proto * list string)) (c : connset) : connset :=
  fold_left (fun acc pn => fold_left (conv_step p (fst pn)) (snd pn) acc) l c.

Lemma conv_all_ok p l c :
  pod_okb p = true -> cs_wf c -> grows c (conv_all p l c) (fun pr n => existsb (fun pn => pn_resolves p c pn pr n) l).
Proof.
  intros Hp. apply (grows_fold _ (pn_resolves p)).
  - intros a pn Wa. exact (conv_names_ok p pn a Hp Wa).
  - intros a a' pn pr n E. unfold pn_resolves. rewrite E. reflexivity.
Qed.

Lemma named_ports_has_proto c pn : In pn (cs_named_ports c) -> has_proto c (fst pn) = true.
Proof. intros H. destruct (proj2 (cs_named_ports_props c) pn H) as [ps E]. unfold has_proto. rewrite E. reflexivity. Qed.

Lemma has_name_iff c q nm : has_name c q nm = true <-> exists names, In (q, names) (cs_named_ports c) /\ In nm names.
Proof.
  unfold has_name, cs_named_ports. split.
  - destruct (cs_get c q) as [ps|] eqn:E; [|discriminate]. rewrite sset_mem_str_mem, str_mem_In. intros H.
    exists (ps_named ps). split; [|exact H]. apply in_flat_map. exists q. split; [destruct q; cbn; auto|].
    rewrite E. destruct (ps_named ps); [destruct H|left; reflexivity].
  - intros (names & Hin & Hnm). apply in_flat_map in Hin. destruct Hin as (q' & _ & Hq).
    destruct (cs_get c q') as [ps|] eqn:E; [|destruct Hq]. destruct (ps_named ps) as [|n0 ns] eqn:En; [destruct Hq|].
    destruct Hq as [Hq|[]]. inversion Hq; subst q' names. rewrite E, En, sset_mem_str_mem. apply str_mem_In, Hnm.
Qed.

Lemma drop_empty_ok c : cs_wf c -> cs_wf (drop_empty_protocols c) /\
  forall pr n, cs_denote (drop_empty_protocols c) pr n = cs_denote c pr n.
Proof.
  intros Hw. unfold drop_empty_protocols. split.
  - intros q x Hx. rewrite cs_get_map in Hx. destruct (cs_get c q) as [ps|] eqn:E; [|discriminate Hx].
    destruct (ps_isempty ps); [discriminate Hx|]. inversion Hx; subst x. exact (Hw q ps E).
  - intros pr n. rewrite !cs_denote_eq, cs_all_map, cs_get_map. destruct (cs_get c pr) as [ps|]; [|reflexivity].
    destruct (ps_isempty ps) eqn:Ee; [|reflexivity]. cbn [opt_mem]. rewrite (ps_isempty_ports ps Ee). reflexivity.
Qed.

(* C06: the named ports of an ingress entire-cluster connection become the workload's own ports of those names *)
Theorem convert_named_ok p c :
  pod_okb p = true -> cs_wf c ->
  cs_wf (convert_named p c) /\
  forall pr n, cs_denote (convert_named p c) pr n
               = cs_denote c pr n
                 || (valid_port n && negb (cs_all c)
                     && existsb (fun pn => proto_eqb (fst pn) pr && existsb (fun nm => resolves p (fst pn) nm n) (snd pn)) (cs_named_ports c)).
Proof.
  intros Hp Hw. unfold convert_named. destruct (cs_named_ports c) as [|pn0 rest] eqn:En.
  - split; [exact Hw|]. intros pr n. cbn [existsb]. rewrite !andb_false_r, orb_false_r. reflexivity.
  - change (fold_left _ (pn0 :: rest) c) with (conv_all p (pn0 :: rest) c). rewrite <- En.
    destruct (conv_all_ok p (cs_named_ports c) c Hp Hw) as (C1 & _ & _ & C2).
    destruct (drop_empty_ok _ C1) as [D1 D2]. split; [exact D1|]. intros pr n. rewrite D2, C2. do 2 f_equal.
    apply existsb_ext_in. intros pn Hin. unfold pn_resolves. rewrite (named_ports_has_proto c pn Hin). reflexivity.
Qed.

Lemma convert_named_denote p c q n :
  pod_okb p = true -> cs_wf c ->
  (cs_denote (convert_named p c) q n = true <->
   cs_denote c q n = true \/
   (valid_port n = true /\ cs_all c = false /\
    exists nm, has_name c q nm = true /\ pod_named_port (p_ports p) nm = Some (q, n))).
Proof.
  intros Hp Hw. rewrite (proj2 (convert_named_ok p c Hp Hw)), orb_true_iff, !andb_true_iff, negb_true_iff, existsb_exists.
  split; (intros [H|H]; [left; exact H|right]).
  - destruct H as ((Hv & Ha) & [q' names] & Hin & H). split; [exact Hv|]. split; [exact Ha|].
    cbn [fst snd] in H. apply andb_true_iff in H. destruct H as [Hq H].
    apply proto_eqb_eq in Hq. subst q'. apply existsb_exists in H. destruct H as (nm & Hnm & H).
    exists nm. split; [apply has_name_iff; exists names; split; assumption|apply resolves_iff; assumption].
  - destruct H as (Hv & Ha & nm & Hn & Hd). split; [split; assumption|].
    apply has_name_iff in Hn. destruct Hn as (names & Hin & Hnm). exists (q, names). split; [exact Hin|].
    cbn [fst snd]. rewrite proto_eqb_refl. apply existsb_exists. exists nm. split; [exact Hnm|apply resolves_iff; assumption].
Qed.

Lemma convert_named_holds p nsl c (P : np_rule -> bool) rules :
  pod_okb p = true ->
  cs_holds false c (fun q y => existsb (fun rl => P rl && nodst_has (nr_ports rl) q y) rules) ->
  cs_holds true (convert_named p c) (fun q y => existsb (fun rl => P rl && rule_has (PPod p nsl) true rl q y) rules).
Proof.
  intros Hp (W & Hn & Hm). specialize (Hm eq_refl). cbn [nodst_has rule_has pmatch] in *.
  split; [apply convert_named_ok; assumption|]. split; [|discriminate]. intros q n. apply eq_true_iff_eq.
  rewrite (convert_named_denote p c q n Hp W), Hn, !andb_true_iff, !existsb_exists. split.
  - intros [(Hv & rl & Hin & H)|(Hv & Ha & nm & Hnm & Hd)].
    + split; [exact Hv|]. exists rl. split; [exact Hin|]. apply andb_true_iff in H. destruct H as [HP H].
      rewrite HP. apply num_rule_ports_any, H.
    + split; [exact Hv|]. rewrite Hm, Ha in Hnm. apply existsb_exists in Hnm. destruct Hnm as (rl & Hin & H).
      exists rl. split; [exact Hin|]. apply andb_true_iff in H. destruct H as [HP H]. rewrite HP.
      apply rule_ports_pod. right. exists nm. split; assumption.
  - intros (Hv & rl & Hin & H). apply andb_true_iff in H. destruct H as [HP H].
    apply rule_ports_pod in H. destruct H as [H|(nm & H & Hd)].
    + left. split; [exact Hv|]. exists rl. rewrite HP, H. split; [exact Hin|reflexivity].
    + destruct (cs_all c) eqn:Ea.
      * left. pose proof (Hn q n) as Hq. rewrite (cs_all_denote c q n Ea), Hv in Hq. split; [exact Hv|].
        apply existsb_exists. symmetry. exact Hq.
      * right. split; [exact Hv|]. split; [reflexivity|]. exists nm. split; [|exact Hd]. rewrite Hm. cbn [negb andb].
        apply existsb_exists. exists rl. rewrite HP, H. split; [exact Hin|reflexivity].
Qed.

Definition pol_has (P : np_rule -> bool) (np : netpol) (real : peer) (ingress : bool) (q : proto) (y : pref) : bool :=
  existsb (fun rl => P rl && rule_has real ingress rl q y) (dir_rules np ingress).

Lemma pol_has_intro (P : np_rule -> bool) np real ingress rl q y :
  In rl (dir_rules np ingress) -> P rl = true -> rule_has real ingress rl q y = true -> pol_has P np real ingress q y = true.
Proof. intros Hrl HP H. apply existsb_exists. exists rl. rewrite HP, H. split; [exact Hrl|reflexivity]. Qed.

Lemma governs_affects np p d : s_np_governs np p d = true -> np_affects np d = true.
Proof.
  unfold s_np_governs. rewrite np_affects_eq. intros H. apply andb_true_iff in H. destruct H as [H _].
  apply andb_true_iff in H. apply H.
Qed.

Lemma cluster_wide_ok w p nsl ingress :
  forallb netpol_okb (w_nps w) = true -> pod_okb p = true ->
  let sel := filter (fun np => s_np_governs np p (dir_of ingress)) (w_nps w) in
  cs_holds ingress (cluster_wide sel p ingress) (fun q y => existsb (fun np => pol_has opens np (PPod p nsl) ingress q y) sel).
Proof.
  intros Hok Hp sel. rewrite forallb_forall in Hok. unfold cluster_wide. change (if ingress then Ingress else Egress) with (dir_of ingress).
  refine (fold_union_holds ingress _ (fun np => pol_has opens np (PPod p nsl) ingress) sel _ _ (cs_holds_make_false ingress) _).
  intros np Hin. apply filter_In in Hin. destruct Hin as [Hin Hgov]. cbn zeta.
  rewrite (scan_dir_on np ingress (governs_affects np p _ Hgov)). cbn [pe_cw].
  assert (H := scan_part_ok opens _ (forallb_dir np_rule_okb ingress _ _ (Hok np Hin))).
  destruct ingress; [exact (convert_named_holds p nsl _ opens _ Hp H)|exact H].
Qed.

Lemma rule_conns_ok real (ingress : bool) rl rc :
  peer_okb real = true -> np_rule_okb rl = true ->
  (if ingress then np_rule_conns (nr_ports rl) real else Ok (rule_conns_nodst (nr_ports rl))) = Ok rc ->
  cs_holds ingress rc (rule_has real ingress rl).
Proof.
  intros Hd Hr H. destruct ingress.
  - destruct (np_rule_conns_ok _ _ _ Hd Hr H) as [Hs Hden]. split; [apply cs_tidy_wf; exact Hs|]. split; [exact Hden|discriminate].
  - inversion H; subst rc. exact (rule_conns_nodst_ok (nr_ports rl) Hr).
Qed.

Lemma rules_conns_rep_ok npns r real ingress rules : forall res c U0,
  peer_okb real = true -> forallb np_rule_okb rules = true ->
  rules_conns_rep npns rules r real ingress res = Ok c -> cs_holds ingress res U0 ->
  cs_holds ingress c (fun q y => U0 q y || existsb (fun rl => rule_selects npns r rl && rule_has real ingress rl q y) rules).
Proof.
  induction rules as [|rl t IH]; intros res c U0 Hd Hok H Hres; cbn [rules_conns_rep] in H.
  - inversion H; subst c. revert Hres. apply cs_holds_ext. intros. symmetry. apply orb_false_r.
  - cbn [forallb] in Hok. apply andb_true_iff in Hok. destruct Hok as [Hr Ht]. cbn [existsb].
    bind_inv H as sel Esel. apply rule_selects_rep_ok in Esel. rewrite <- Esel. destruct sel; cbn [negb andb orb] in *.
    + bind_inv H as rc Erc.
      generalize (IH _ _ _ Hd Ht H (cs_holds_union _ _ _ _ _ Hres (rule_conns_ok real ingress rl rc Hd Hr Erc))).
      apply cs_holds_ext. intros. symmetry. apply orb_assoc.
    + exact (IH _ _ _ Hd Ht H Hres).
Qed.

(* policy_conns_rep: one of the two shortcuts of the pre-scan (all the connections), or the rules *)
Definition shortcut (np : netpol) (ingress : bool) : bool :=
  cs_all (pe_ext (scan_dir np (dir_of ingress))) || cs_all (pe_cw (scan_dir np (dir_of ingress))).
Definition rep_conns_has (np : netpol) (r : rep) (real : peer) (ingress : bool) (q : proto) (y : pref) : bool :=
  match y with ByNum _ => shortcut np ingress | ByName _ => false end || pol_has (rule_selects (np_ns np) r) np real ingress q y.

Lemma policy_conns_rep_ok np r real ingress pc :
  netpol_okb np = true -> peer_okb real = true ->
  policy_conns_rep np r real ingress = Ok pc -> cs_holds ingress pc (rep_conns_has np r real ingress).
Proof.
  intros Hok Hd H. unfold policy_conns_rep in H. unfold rep_conns_has, shortcut.
  change (if ingress then Ingress else Egress) with (dir_of ingress) in H.
  change (if ingress then np_in np else np_eg np) with (dir_rules np ingress) in H.
  destruct (scan_dir_all_canon np (dir_of ingress)) as [Ce Cc].
  destruct (cs_all (pe_ext (scan_dir np (dir_of ingress)))) eqn:Eext;
    [inversion H; subst pc; rewrite (Ce Eext); apply cs_holds_make_true; reflexivity|].
  destruct (cs_all (pe_cw (scan_dir np (dir_of ingress)))) eqn:Ecw;
    [inversion H; subst pc; rewrite (Cc Ecw); apply cs_holds_make_true; reflexivity|].
  generalize (rules_conns_rep_ok _ _ _ _ _ _ _ _ Hd (forallb_dir np_rule_okb ingress _ _ Hok) H (cs_holds_make_false ingress)).
  apply cs_holds_ext. intros q [n|nm]; reflexivity.
Qed.

Lemma nps_union_rep_ok sel r real ingress : forall acc c U0,
  forallb netpol_okb sel = true -> peer_okb real = true ->
  nps_union_rep sel r real ingress acc = Ok c -> cs_holds ingress acc U0 ->
  cs_holds ingress c (fun q y => U0 q y || existsb (fun np => rep_conns_has np r real ingress q y) sel).
Proof.
  induction sel as [|np t IH]; intros acc c U0 Hok Hd H Hacc; cbn [nps_union_rep] in H.
  - inversion H; subst c. revert Hacc. apply cs_holds_ext. intros. symmetry. apply orb_false_r.
  - cbn [forallb] in Hok. apply andb_true_iff in Hok. destruct Hok as [Hnp Ht]. cbn [existsb]. bind_inv H as pc Epc.
    generalize (IH _ _ _ Ht Hd H (cs_holds_union _ _ _ _ _ Hacc (policy_conns_rep_ok np r real ingress pc Hnp Hd Epc))).
    apply cs_holds_ext. intros. symmetry. apply orb_assoc.
Qed.

Lemma cs_holds_inter_all c U : cs_holds true c U -> cs_holds true (cs_inter (cs_make true) c) U.
Proof.
  intros (W & H & _). split; [apply cs_inter_wf; [apply cs_make_wf|exact W]|]. split; [|discriminate]. intros q n.
  rewrite cs_inter_denote, cs_make_denote, H; [|apply cs_make_wf|exact W|intros _ p; apply cs_get_make].
  destruct (valid_port n); reflexivity.
Qed.

Lemma conns_with_rep_ok w p nsl r ingress c :
  forallb netpol_okb (w_nps w) = true -> pod_okb p = true ->
  conns_with_rep w p nsl r ingress = Ok c ->
  let sel := filter (fun np => s_np_governs np p (dir_of ingress)) (w_nps w) in
  sel <> [] ->
  cs_holds ingress c (fun q y => existsb (fun np => rep_conns_has np r (PPod p nsl) ingress q y) sel).
Proof.
  intros Hok Hp H. unfold conns_with_rep in H. change (if ingress then Ingress else Egress) with (dir_of ingress) in H.
  bind_inv H as sel Hs. apply selecting_nps_ok in Hs. rewrite <- Hs. cbn zeta. intros Hne.
  destruct sel as [|np0 t0]; [contradiction|]. bind_inv H as c' Hc.
  assert (Hok' : forallb netpol_okb (np0 :: t0) = true) by (rewrite Hs; apply forallb_filter, Hok).
  assert (Hc' := nps_union_rep_ok _ _ (PPod p nsl) _ _ _ _ Hok' Hp Hc (cs_holds_make_false ingress)).
  inversion H; subst c. destruct ingress; [apply cs_holds_inter_all|]; exact Hc'.
Qed.

(* the pair (src, dst) when the unknown peer X is the source (ingress) or the destination *)
Definition x_src (real X : peer) (ingress : bool) : peer := if ingress then X else real.
Definition x_dst (real X : peer) (ingress : bool) : peer := if ingress then real else X.

Lemma policy_allows_x np W X ingress q n :
  s_np_policy_allows np (x_src W X ingress) (x_dst W X ingress) ingress q n
  = existsb (fun rl => s_np_rule_peers (np_ns np) (nr_peers rl) X && s_np_rule_ports (nr_ports rl) (x_dst W X ingress) q n)
            (dir_rules np ingress).
Proof. destruct ingress; reflexivity. Qed.

(* the port of the hypothetical pod that [y] denotes *)
Definition ref_is (hp : pod) (ingress : bool) (q : proto) (y : pref) (n : Z) : Prop :=
  match y with
  | ByNum m => m = n /\ valid_port n = true
  | ByName nm => ingress = false /\ pod_named_port (p_ports hp) nm = Some (q, n)
  end.

Lemma pol_has_allows (P : np_rule -> bool) np W hp hnsl ingress q y n :
  (forall rl, P rl = true -> s_np_rule_peers (np_ns np) (nr_peers rl) (PPod hp hnsl) = true) ->
  pol_has P np W ingress q y = true -> ref_is hp ingress q y n ->
  s_np_policy_allows np (x_src W (PPod hp hnsl) ingress) (x_dst W (PPod hp hnsl) ingress) ingress q n = true.
Proof.
  intros HP H Hy. rewrite policy_allows_x. revert H. apply existsb_impl. intros rl _ H.
  apply andb_true_iff in H. destruct H as [H1 H2]. rewrite (HP rl H1). destruct y as [m|nm]; cbn [rule_has ref_is] in *.
  - destruct Hy as [-> _]. unfold pmatch in H2. destruct ingress; [exact H2|apply num_rule_ports_any, H2].
  - destruct Hy as [-> Hd]. apply rule_ports_pod. right. exists nm. split; assumption.
Qed.

Lemma shortcut_opens np W ingress q n :
  netpol_okb np = true -> shortcut np ingress = true -> valid_port n = true ->
  pol_has opens np W ingress q (ByNum n) = true.
Proof.
  intros Hok H Hv. unfold shortcut in H.
  destruct (np_affects np (dir_of ingress)) eqn:Ea; [|rewrite (scan_dir_off _ _ Ea) in H; discriminate H].
  rewrite (scan_dir_on _ _ Ea) in H. cbn [pe_ext pe_cw] in H.
  assert (G : forall P, (forall rl, P rl = true -> opens rl = true) -> cs_all (scan_part P (dir_rules np ingress)) = true ->
                        pol_has opens np W ingress q (ByNum n) = true).
  { intros P HP Ha. generalize (scan_part_all P _ q n (forallb_dir np_rule_okb ingress _ _ Hok) Ha Hv). apply existsb_impl.
    intros rl _ Hrl. apply andb_true_iff in Hrl. destruct Hrl as [H1 H2]. rewrite (HP rl H1). cbn [andb rule_has].
    unfold pmatch. destruct ingress; [apply num_rule_ports_any, H2|exact H2]. }
  apply orb_true_iff in H. destruct H as [H|H]; [exact (G no_peers no_peers_opens H)|exact (G opens (fun _ h => h) H)].
Qed.

Lemma rep_conns_has_allows np r W hp hnsl ingress q y n :
  netpol_okb np = true -> satisfies hp hnsl r -> rep_conns_has np r W ingress q y = true -> ref_is hp ingress q y n ->
  s_np_policy_allows np (x_src W (PPod hp hnsl) ingress) (x_dst W (PPod hp hnsl) ingress) ingress q n = true.
Proof.
  intros Hok Hsat H Hy. unfold rep_conns_has in H. apply orb_true_iff in H. destruct H as [H|H].
  - destruct y as [m|nm]; [|discriminate H]. destruct Hy as [-> Hv].
    apply (pol_has_allows opens np W hp hnsl ingress q (ByNum n)).
    + intros rl Hrl. exact (opens_matches _ rl (PPod hp hnsl) Hrl eq_refl).
    + exact (shortcut_opens np W ingress q n Hok H Hv).
    + split; [reflexivity|exact Hv].
  - apply (pol_has_allows (rule_selects (np_ns np) r) np W hp hnsl ingress q y); [|exact H|exact Hy].
    intros rl. apply rule_selects_sound, Hsat.
Qed.

Definition cw_entry (cw : connset) : list xentry :=
  if cs_isempty cw then [] else [mkXE true (mkSel [] []) (mkSel [] []) cw].

Lemma dir_data_inv w p nsl ingress reps od :
  dir_data w p nsl ingress reps = Ok od ->
  let sel := filter (fun np => s_np_governs np p (dir_of ingress)) (w_nps w) in
  (sel = [] /\ od = Some (mkXD false [])) \/
  (sel <> [] /\ exists es, rep_entries w p nsl (cluster_wide sel p ingress) ingress reps = Ok es /\
                           forall d, od = Some d -> d = mkXD true (cw_entry (cluster_wide sel p ingress) ++ es)).
Proof.
  unfold dir_data. change (if ingress then Ingress else Egress) with (dir_of ingress). intros H.
  bind_inv H as sel Hs. apply selecting_nps_ok in Hs. rewrite <- Hs. cbn zeta.
  destruct sel as [|np t]; [left; split; [reflexivity|inversion H; reflexivity]|right]. split; [discriminate|].
  bind_inv H as es Ees. exists es. split; [exact Ees|]. intros d ->.
  fold (cw_entry (cluster_wide (np :: t) p ingress)) in H. destruct (cw_entry _ ++ es); inversion H; reflexivity.
Qed.

Definition rep_entry (w : world) (p : pod) (nsl : labels) (cw : connset) (ingress : bool) (r : rep) : list xentry :=
  match conns_with_rep w p nsl r ingress with
  | Ok c => if cs_isempty c || negb (cs_isempty cw) && cs_containedin c cw then []
            else [mkXE false (rp_nssel r) (osel_or_empty (rp_podsel r)) c]
  | Err _ => []
  end.

Lemma rep_entries_eq w p nsl cw ingress reps : forall es,
  rep_entries w p nsl cw ingress reps = Ok es ->
  es = flat_map (rep_entry w p nsl cw ingress) reps /\
  forall r, In r reps -> exists c, conns_with_rep w p nsl r ingress = Ok c.
Proof.
  induction reps as [|r t IH]; intros es H; cbn [rep_entries] in H; [inversion H; split; [reflexivity|intros r []]|].
  bind_inv H as c Ec. bind_inv H as rest Er. destruct (IH rest Er) as [-> Hall]. split.
  - cbn [flat_map]. unfold rep_entry at 1. rewrite Ec. destruct (cs_isempty c); cbn [orb]; [inversion H; reflexivity|].
    destruct (negb (cs_isempty cw) && cs_containedin c cw); inversion H; reflexivity.
  - intros r0 [<-|Hin]; [exists c; exact Ec|exact (Hall r0 Hin)].
Qed.

Lemma osel_or_empty_matches s l : sel_matches_raw (osel_or_empty s) l = s_opt_sel s l true.
Proof. destruct s as [x|]; reflexivity. Qed.

Lemma governing_policy_allows_layer w p nsl X ingress q n :
  existsb (fun np => s_np_policy_allows np (x_src (PPod p nsl) X ingress) (x_dst (PPod p nsl) X ingress) ingress q n)
          (filter (fun np => s_np_governs np p (dir_of ingress)) (w_nps w)) = true ->
  s_np_layer w (x_src (PPod p nsl) X ingress) (x_dst (PPod p nsl) X ingress) ingress q n = Some true.
Proof.
  unfold s_np_layer. destruct ingress; cbn [x_src x_dst dir_of];
    (destruct (filter _ (w_nps w)); [discriminate|intros ->; reflexivity]).
Qed.

(* [HH] is [pol_has opens] for the entire-cluster entry and [rep_conns_has] for the entry of a representative peer *)
Lemma entry_allowed w reps p nsl ingress d e hp hnsl :
  forallb netpol_okb (w_nps w) = true -> pod_okb p = true ->
  dir_data w p nsl ingress reps = Ok (Some d) -> In e (xd_entries d) ->
  (xe_cluster e = true \/
   (sel_matches_raw (xe_nssel e) hnsl = true /\ sel_matches_raw (xe_podsel e) (p_labels hp) = true /\
    lookup K8sNsNameLabelKey hnsl = Some (p_ns hp))) ->
  let W := PPod p nsl in let X := PPod hp hnsl in
  let sel := filter (fun np => s_np_governs np p (dir_of ingress)) (w_nps w) in
  exists HH, cs_holds ingress (xe_conn e) (fun q y => existsb (fun np => HH np q y) sel) /\
             forall np q y n, In np sel -> HH np q y = true -> ref_is hp ingress q y n ->
                              s_np_policy_allows np (x_src W X ingress) (x_dst W X ingress) ingress q n = true.
Proof.
  intros Hok Hp H Hin Hsat. cbn zeta.
  destruct (dir_data_inv _ _ _ _ _ _ H) as [[_ Hd]|(Hne & es & Hes & Hd)]; [inversion Hd; subst d; destruct Hin|].
  rewrite (Hd d eq_refl) in Hin. cbn [xd_entries] in Hin. apply in_app_or in Hin. destruct Hin as [Hin|Hin].
  - unfold cw_entry in Hin. destruct (cs_isempty _); [destruct Hin|]. destruct Hin as [<-|[]].
    exists (fun np => pol_has opens np (PPod p nsl) ingress). split; [exact (cluster_wide_ok w p nsl ingress Hok Hp)|].
    intros np q y n _. apply pol_has_allows. intros rl Hrl. exact (opens_matches _ rl (PPod hp hnsl) Hrl eq_refl).
  - rewrite (proj1 (rep_entries_eq _ _ _ _ _ _ _ Hes)) in Hin. apply in_flat_map in Hin. destruct Hin as (r & _ & He).
    unfold rep_entry in He. destruct (conns_with_rep w p nsl r ingress) as [c|] eqn:Ec; [|destruct He].
    destruct (_ || _); [destruct He|]. destruct He as [<-|[]]. cbn [xe_cluster xe_nssel xe_podsel xe_conn] in *.
    destruct Hsat as [Hsat|(S1 & S2 & S3)]; [discriminate Hsat|]. rewrite osel_or_empty_matches in S2.
    exists (fun np => rep_conns_has np r (PPod p nsl) ingress). split; [exact (conns_with_rep_ok w p nsl r ingress c Hok Hp Ec Hne)|].
    intros np q y n Hnp. apply rep_conns_has_allows; [|exact (conj S1 (conj S2 S3))].
    apply filter_In in Hnp. apply (proj1 (forallb_forall _ _) Hok), Hnp.
Qed.

(* C06: what a reported entry holds is allowed between the workload and any pod that satisfies the entry's selectors *)
Theorem reported_entry_realizable w reps p nsl ingress d e hp hnsl :
  forallb netpol_okb (w_nps w) = true -> pod_okb p = true ->
  dir_data w p nsl ingress reps = Ok (Some d) -> In e (xd_entries d) ->
  (xe_cluster e = true \/
   (sel_matches_raw (xe_nssel e) hnsl = true /\ sel_matches_raw (xe_podsel e) (p_labels hp) = true /\
    lookup K8sNsNameLabelKey hnsl = Some (p_ns hp))) ->
  let W := PPod p nsl in let X := PPod hp hnsl in
  (forall pr n, cs_denote (xe_conn e) pr n = true ->
     s_np_layer w (x_src W X ingress) (x_dst W X ingress) ingress pr n = Some true) /\
  (ingress = false -> forall q nm n, has_name (xe_conn e) q nm = true -> pod_named_port (p_ports hp) nm = Some (q, n) ->
     s_np_layer w W X false q n = Some true).
Proof.
  intros Hok Hp H Hin Hsat. cbn zeta.
  destruct (entry_allowed w reps p nsl ingress d e hp hnsl Hok Hp H Hin Hsat) as (HH & (_ & Hn & Hm) & Hall).
  split.
  - intros q n Hden. apply governing_policy_allows_layer.
    rewrite Hn in Hden. apply andb_true_iff in Hden. destruct Hden as [Hv Hden]. revert Hden. apply existsb_impl.
    intros np Hnp Hnpq. exact (Hall np q (ByNum n) n Hnp Hnpq (conj eq_refl Hv)).
  - intros -> q nm n Hnm Hd. apply (governing_policy_allows_layer w p nsl (PPod hp hnsl) false).
    rewrite (Hm eq_refl) in Hnm. apply andb_true_iff in Hnm. destruct Hnm as [_ Hnm]. revert Hnm. apply existsb_impl.
    intros np Hnp Hnpq. exact (Hall np q (ByName nm) n Hnp Hnpq (conj eq_refl Hd)).
Qed.

(* C06; a workload without entry in the direction's map (None) is shown with default_xdata *)
Theorem dir_data_protected w p nsl ingress reps od :
  dir_data w p nsl ingress reps = Ok od ->
  xd_protected (match od with Some d => d | None => default_xdata end)
  = negb (match filter (fun np => s_np_governs np p (dir_of ingress)) (w_nps w) with [] => true | _ => false end).
Proof.
  intros H. destruct (dir_data_inv _ _ _ _ _ _ H) as [[Hs ->]|(Hne & es & _ & Hd)]; [rewrite Hs; reflexivity|].
  destruct (filter _ (w_nps w)); [destruct (Hne eq_refl)|]. destruct od as [d|]; [rewrite (Hd d eq_refl)|]; reflexivity.
Qed.

(* The shortcuts of exposure mode change nothing between real peers: a shortcut returns all the connections only when
   the rules without peers (or open to the cluster, for a pod on the other side) allow every port, and then the
   evaluation of the rules returns all the connections too. *)
Lemma np_dir_conns_x_same np src dst ingress :
  netpol_okb np = true -> peer_okb dst = true ->
  refines (np_dir_conns np src dst ingress) (np_dir_conns_x np src dst ingress).
Proof.
  intros Hok Hd c H. unfold np_dir_conns_x. change (if ingress then Ingress else Egress) with (dir_of ingress).
  destruct (np_affects np (dir_of ingress)) eqn:Ea; [|rewrite (scan_dir_off _ _ Ea); exact H].
  rewrite (scan_dir_on _ _ Ea). cbn [pe_ext pe_cw].
  destruct (np_dir_conns_ok np src dst ingress c Hd Hok H) as [Hcn Hcd].
  pose proof (forallb_dir np_rule_okb ingress _ _ Hok) as Hr.
  set (other := if ingress then src else dst) in *.
  assert (Hall : forall P, (forall rl, P rl = true -> s_np_rule_peers (np_ns np) (nr_peers rl) other = true) ->
                   cs_all (scan_part P (dir_rules np ingress)) = true -> scan_part P (dir_rules np ingress) = c).
  { intros P HP Ha. rewrite (scan_part_all_canon P _ Ha). symmetry. apply (ninv_all_is_make c Hcn).
    intros pr n Hv. rewrite Hcd, Hv. cbn [andb]. unfold s_np_policy_allows.
    change (if ingress then np_in np else np_eg np) with (dir_rules np ingress).
    generalize (scan_part_all P _ pr n Hr Ha Hv). apply existsb_impl. intros rl _ Hrl.
    apply andb_true_iff in Hrl. destruct Hrl as [R1 R2].
    unfold s_np_rule. fold other. rewrite (HP rl R1). apply num_rule_ports_any, R2. }
  destruct (cs_all (scan_part no_peers (dir_rules np ingress))) eqn:Eext.
  - f_equal. apply (Hall no_peers); [intros rl R; apply no_peers_matches, R|exact Eext].
  - destruct (cs_all (scan_part opens (dir_rules np ingress))) eqn:Ecw; cbn [andb]; [|exact H].
    destruct (peer_is_ip other) eqn:Eip; cbn [negb]; [exact H|].
    f_equal. apply (Hall opens); [intros rl R; exact (opens_matches _ rl other R Eip)|exact Ecw].
Qed.

Lemma nps_union_conns_x_same sel src dst ingress :
  forallb netpol_okb sel = true -> peer_okb dst = true ->
  forall acc, refines (nps_union_conns sel src dst ingress acc) (nps_union_conns_x sel src dst ingress acc).
Proof.
  intros Hok Hd. induction sel as [|np t IH]; intros acc; cbn [nps_union_conns nps_union_conns_x]; [apply refines_refl|].
  cbn [forallb] in Hok. apply andb_true_iff in Hok. destruct Hok as [Hnp Ht].
  apply refines_bind; [apply np_dir_conns_x_same; assumption|]. intros c _. apply IH, Ht.
Qed.

(* exposure mode rejects admin policies *)
Section NoAdminPolicies.
  Variable w : world.
  Hypothesis Ha : w_anps w = [].
  Hypothesis Hb : w_banp w = None.
  Hypothesis Hok : forallb netpol_okb (w_nps w) = true.

  Lemma np_layer_x_same src dst ingress :
    peer_okb dst = true -> refines (np_layer w src dst ingress) (np_layer_x w src dst ingress).
  Proof.
    intros Hd. unfold np_layer, np_layer_x. destruct (if ingress then dst else src) as [p nsl|b]; [|apply refines_refl].
    apply refines_bind; [apply refines_refl|]. intros sel Hs. destruct sel as [|np t]; [apply refines_refl|].
    apply refines_bind; [|intros; apply refines_refl]. apply nps_union_conns_x_same; [|exact Hd].
    apply selecting_nps_ok in Hs. rewrite Hs. apply forallb_filter, Hok.
  Qed.

  Lemma xgress_conns_x_same src dst ingress :
    peer_okb dst = true -> refines (xgress_conns w src dst ingress) (xgress_conns_x w src dst ingress).
  Proof.
    intros Hd. unfold xgress_conns, xgress_conns_x. rewrite Ha. cbn [anps_conns bind].
    change (negb (pc_isempty pc_new)) with false. cbn [andb].
    apply refines_bind; [apply np_layer_x_same, Hd|]. intros [c|] _; [apply refines_refl|].
    unfold default_conns. rewrite Hb. apply refines_refl.
  Qed.

  Lemma all_conns_x_same src dst : peer_okb dst = true -> refines (all_conns w src dst) (all_conns_x w src dst).
  Proof.
    intros Hd. unfold all_conns, all_conns_x. destruct (pod_to_itself src dst); [apply refines_refl|].
    apply refines_bind; [apply xgress_conns_x_same, Hd|]. intros eg _. destruct (cs_isempty eg); [apply refines_refl|].
    apply refines_bind; [apply xgress_conns_x_same, Hd|]. intros; apply refines_refl.
  Qed.

  Lemma pair_conns_x_same blocks s d :
    forallb pod_okb (w_pods w) = true -> In d (mpeers_of w blocks) -> refines (pair_conns w s d) (pair_conns_x w s d).
  Proof.
    intros Hp Hd. unfold pair_conns, pair_conns_x. apply refines_bind; [apply refines_refl|]. intros sp _.
    apply refines_bind; [apply refines_refl|]. intros dp Edp. apply all_conns_x_same.
    exact (eval_peer_okb w blocks d dp Hp Hd Edp).
  Qed.
End NoAdminPolicies.

Lemma row_conns_as_g w s ds : row_conns w EmptyString s ds = row_conns_g (pair_conns w) s ds.
Proof. induction ds as [|d t IH]; cbn [row_conns row_conns_g]; [reflexivity|]. rewrite IH. reflexivity. Qed.
Lemma all_rows_as_g w ss ds : all_rows w EmptyString ss ds = all_rows_g (pair_conns w) ss ds.
Proof. induction ss as [|s t IH]; cbn [all_rows all_rows_g]; [reflexivity|]. rewrite IH, row_conns_as_g. reflexivity. Qed.

Lemma row_conns_g_mono pc pc' s ds :
  (forall d, In d ds -> refines (pc s d) (pc' s d)) -> refines (row_conns_g pc s ds) (row_conns_g pc' s ds).
Proof.
  induction ds as [|d t IH]; intros H; cbn [row_conns_g]; [apply refines_refl|].
  assert (Ht := IH (fun x Hx => H x (or_intror Hx))). destruct (include_pair EmptyString s d); [|exact Ht].
  apply refines_bind; [apply H; left; reflexivity|]. intros c _. apply refines_bind; [exact Ht|intros; apply refines_refl].
Qed.
Lemma all_rows_g_mono pc pc' ss ds :
  (forall s d, In d ds -> refines (pc s d) (pc' s d)) -> refines (all_rows_g pc ss ds) (all_rows_g pc' ss ds).
Proof.
  intros H. induction ss as [|s t IH]; cbn [all_rows_g]; [apply refines_refl|].
  apply refines_bind; [apply row_conns_g_mono, H|]. intros a _. apply refines_bind; [exact IH|intros; apply refines_refl].
Qed.

(* C06: the base report of exposure mode is the report of list *)
Theorem exposure_base_report_unchanged w r :
  w_anps w = [] -> w_banp w = None -> forallb netpol_okb (w_nps w) = true -> forallb pod_okb (w_pods w) = true ->
  list_world w EmptyString false = Ok r -> list_world_x w = Ok r.
Proof.
  intros Ha Hb Hok Hp. revert r. change (refines (list_world w EmptyString false) (list_world_x w)).
  unfold list_world, list_world_x, list_world_g. destruct (w_pods w) as [|p0 pt] eqn:Epods; [apply refines_refl|]. rewrite <- Epods in Hp |- *.
  destruct (negb (owners_consistent (w_pods w))); [apply refines_refl|].
  apply refines_bind; [apply refines_refl|]. intros blocks _. cbn [String.eqb negb andb]. rewrite all_rows_as_g.
  apply refines_bind; [|intros; apply refines_refl]. apply all_rows_g_mono. intros s d Hd.
  exact (pair_conns_x_same w Ha Hb Hok _ s d Hp Hd).
Qed.

Lemma add_rep_eq ns reps sp :
  add_rep ns reps sp = if negb (rep_valid (rep_of ns sp)) then Err ErrSelector
                       else if existsb (rep_key_eqb (rep_of ns sp)) reps then Ok reps else Ok (reps ++ [rep_of ns sp]).
Proof. destruct sp as [[s|] pods]; reflexivity. Qed.

Lemma add_rep_ok ns reps sp reps' :
  add_rep ns reps sp = Ok reps' ->
  rep_valid (rep_of ns sp) = true /\
  (forall r, In r reps -> In r reps') /\
  (exists r0, In r0 reps' /\ rep_key_eqb (rep_of ns sp) r0 = true) /\
  (forall r, In r reps' -> In r reps \/ r = rep_of ns sp).
Proof.
  rewrite add_rep_eq. set (r := rep_of ns sp). destruct (rep_valid r); cbn [negb]; [|discriminate].
  destruct (existsb (rep_key_eqb r) reps) eqn:Ex; intros H; inversion H; subst reps'.
  - split; [reflexivity|]. split; [auto|]. split; [|auto].
    apply existsb_exists in Ex. destruct Ex as (r0 & Hin & Hk). exists r0. split; assumption.
  - split; [reflexivity|]. split; [intros x Hx; apply in_or_app; left; exact Hx|]. split.
    + exists r. split; [apply in_or_app; right; left; reflexivity|]. unfold rep_key_eqb. rewrite !creqs_eqb_refl. reflexivity.
    + intros x Hx. apply in_app_or in Hx. destruct Hx as [Hx|[Hx|[]]]; [left; exact Hx|right; symmetry; exact Hx].
Qed.

Lemma add_reps_ok ns l : forall reps reps',
  add_reps ns reps l = Ok reps' ->
  (forall r, In r reps -> In r reps') /\
  (forall sp, In sp l -> rep_valid (rep_of ns sp) = true /\ exists r0, In r0 reps' /\ rep_key_eqb (rep_of ns sp) r0 = true) /\
  (forall r, In r reps' -> In r reps \/ exists sp, In sp l /\ r = rep_of ns sp).
Proof.
  induction l as [|sp t IH]; intros reps reps' H; cbn [add_reps] in H.
  - inversion H; subst reps'. split; [auto|]. split; [intros sp []|]. intros r Hr. left. exact Hr.
  - bind_inv H as r1 E1. destruct (add_rep_ok ns reps sp r1 E1) as (V & M1 & (r0 & Hr0 & Hk) & O1).
    destruct (IH r1 reps' H) as (M2 & C2 & O2).
    split; [intros r Hr; apply M2, M1, Hr|]. split.
    + intros sp' [Hsp|Hsp]; [subst sp'; split; [exact V|]; exists r0; split; [apply M2; exact Hr0|exact Hk]|apply C2; exact Hsp].
    + intros r Hr. destruct (O2 r Hr) as [Hr1|(sp' & Hsp' & He)].
      * destruct (O1 r Hr1) as [Hr2|Hr2]; [left; exact Hr2|right; exists sp; split; [left; reflexivity|exact Hr2]].
      * right. exists sp'. split; [right; exact Hsp'|exact He].
Qed.

Definition np_pairs (np : netpol) : list (option selector * option selector) :=
  pe_sels (scan_dir np Ingress) ++ pe_sels (scan_dir np Egress).

Lemma gen_reps_ok nps : forall reps reps',
  gen_reps nps reps = Ok reps' ->
  (forall r, In r reps -> In r reps') /\
  (forall np sp, In np nps -> In sp (np_pairs np) ->
     rep_valid (rep_of (np_ns np) sp) = true /\ exists r0, In r0 reps' /\ rep_key_eqb (rep_of (np_ns np) sp) r0 = true) /\
  (forall r, In r reps' -> In r reps \/ exists np sp, In np nps /\ In sp (np_pairs np) /\ r = rep_of (np_ns np) sp).
Proof.
  induction nps as [|np t IH]; intros reps reps' H; cbn [gen_reps] in H.
  - inversion H; subst reps'. split; [auto|]. split; [intros np sp []|]. intros r Hr. left. exact Hr.
  - fold (np_pairs np) in H. bind_inv H as r1 E1.
    destruct (add_reps_ok _ _ _ _ E1) as (M1 & C1 & O1). destruct (IH r1 reps' H) as (M2 & C2 & O2).
    split; [intros r Hr; apply M2, M1, Hr|]. split.
    + intros np' sp [Hnp|Hnp] Hsp.
      * subst np'. destruct (C1 sp Hsp) as (V & r0 & Hr0 & Hk). split; [exact V|]. exists r0. split; [apply M2; exact Hr0|exact Hk].
      * apply (C2 np' sp Hnp Hsp).
    + intros r Hr. destruct (O2 r Hr) as [Hr1|(np' & sp & Hnp & Hsp & He)].
      * destruct (O1 r Hr1) as [Hr2|(sp & Hsp & He)]; [left; exact Hr2|].
        right. exists np, sp. split; [left; reflexivity|]. split; [exact Hsp|exact He].
      * right. exists np', sp. split; [right; exact Hnp|]. split; [exact Hsp|exact He].
Qed.

Definition pair_of (pr : np_peer) : list (option selector * option selector) :=
  match pr with NPSel nss pods => [(nss, pods)] | NPEmpty => [(None, None)] | _ => [] end.

Lemma scan_entries_eq peers : forall acc l, scan_entries peers acc = Some l -> l = acc ++ flat_map pair_of peers.
Proof.
  induction peers as [|pr t IH]; intros acc l H; cbn [scan_entries] in H; [inversion H; symmetry; apply app_nil_r|].
  destruct pr as [nss pods | cidr exc | | | ]; cbn [entry_selectors] in H; [destruct (opens_cluster nss pods); [discriminate H|]| | | |];
    rewrite (IH _ _ H); cbn [flat_map pair_of app]; rewrite <- ?app_assoc; reflexivity.
Qed.

Lemma rule_pair_collected np ingress rl nss pods :
  np_affects np (dir_of ingress) = true -> In rl (dir_rules np ingress) -> opens rl = false -> In (NPSel nss pods) (nr_peers rl) ->
  In (nss, pods) (np_pairs np).
Proof.
  intros Ha Hrl Hop Hin. unfold np_pairs. apply in_or_app.
  assert (G : In (nss, pods) (pe_sels (scan_dir np (dir_of ingress)))).
  { rewrite (scan_dir_on _ _ Ha). cbn [pe_sels]. apply in_flat_map. exists rl. split; [exact Hrl|].
    unfold rule_pairs. unfold opens in Hop. destruct (nr_peers rl) as [|p0 pt]; [discriminate Hop|].
    destruct (scan_entries (p0 :: pt) []) as [l|] eqn:E; [|discriminate Hop]. rewrite (scan_entries_eq _ _ _ E).
    apply in_flat_map. exists (NPSel nss pods). split; [exact Hin|left; reflexivity]. }
  destruct ingress; [left|right]; exact G.
Qed.

(* the peer registered under the key of a rule's entry may come from another rule: this rule selects it all the same *)
Lemma rule_representative nps reps0 np ingress rl nss pods hp hnsl :
  gen_reps nps [] = Ok reps0 -> In np nps -> np_affects np (dir_of ingress) = true ->
  In rl (dir_rules np ingress) -> opens rl = false -> In (NPSel nss pods) (nr_peers rl) ->
  s_np_peer_matches (np_ns np) (NPSel nss pods) (PPod hp hnsl) = true -> lookup K8sNsNameLabelKey hnsl = Some (p_ns hp) ->
  exists r0, In r0 reps0 /\ rep_key_eqb (rep_of (np_ns np) (nss, pods)) r0 = true /\ satisfies hp hnsl r0 /\
             rule_selects (np_ns np) r0 rl = true.
Proof.
  intros Hgen Hnp Ha Hrl Hop Hpe Hm Hname.
  destruct (proj1 (proj2 (gen_reps_ok nps [] reps0 Hgen)) np (nss, pods) Hnp (rule_pair_collected np ingress rl nss pods Ha Hrl Hop Hpe))
    as (_ & r0 & Hr0 & Hkey).
  destruct (rep_key_selected _ _ _ _ _ _ Hkey Hm Hname) as [Hsat Hsel].
  exists r0. split; [exact Hr0|]. split; [exact Hkey|]. split; [exact Hsat|].
  unfold rule_selects. destruct (nr_peers rl) as [|p0 pt]; [reflexivity|]. apply existsb_exists. exists (NPSel nss pods). split; assumption.
Qed.

(* The suppression of entries, for any property [Q] of connection sets that fails on the empty set: a peer's connection
   with [Q] shows in that peer's entry, or in the entire-cluster entry when [Q] passes to a set that contains it. *)
Lemma entries_cover (Q : connset -> Prop) w p nsl ingress reps d :
  (forall c, Q c -> cs_isempty c = false) ->
  dir_data w p nsl ingress reps = Ok (Some d) ->
  let sel := filter (fun np => s_np_governs np p (dir_of ingress)) (w_nps w) in
  let cw := cluster_wide sel p ingress in
  sel <> [] ->
  (Q cw -> exists e, In e (xd_entries d) /\ xe_cluster e = true /\ Q (xe_conn e)) /\
  (forall r, In r reps -> exists c, conns_with_rep w p nsl r ingress = Ok c /\
     (Q c -> (cs_containedin c cw = true -> Q cw) ->
      exists e, In e (xd_entries d) /\
                (xe_cluster e = true \/ (xe_nssel e = rp_nssel r /\ xe_podsel e = osel_or_empty (rp_podsel r))) /\
                Q (xe_conn e))).
Proof.
  intros HQ H. cbn zeta. intros Hne.
  destruct (dir_data_inv _ _ _ _ _ _ H) as [[Hs _]|(_ & es & Hes & Hd)]; [contradiction|].
  rewrite (Hd d eq_refl). cbn [xd_entries]. destruct (rep_entries_eq _ _ _ _ _ _ _ Hes) as [-> Hall].
  set (cw := cluster_wide _ p ingress) in *.
  assert (Hcl : Q cw -> exists e, In e (cw_entry cw ++ flat_map (rep_entry w p nsl cw ingress) reps) /\ xe_cluster e = true /\ Q (xe_conn e)).
  { intros Hq. exists (mkXE true (mkSel [] []) (mkSel [] []) cw). split; [|split; [reflexivity|exact Hq]].
    apply in_or_app. left. unfold cw_entry. rewrite (HQ _ Hq). left. reflexivity. }
  split; [exact Hcl|]. intros r Hr. destruct (Hall r Hr) as [c Ec]. exists c. split; [exact Ec|]. intros Hq Hcont.
  destruct (negb (cs_isempty cw) && cs_containedin c cw) eqn:Esup.
  - apply andb_true_iff in Esup. destruct (Hcl (Hcont (proj2 Esup))) as (e & He & Hc & Hqe).
    exists e. split; [exact He|]. split; [left; exact Hc|exact Hqe].
  - exists (mkXE false (rp_nssel r) (osel_or_empty (rp_podsel r)) c). split; [|split; [right; split; reflexivity|exact Hq]].
    apply in_or_app. right. apply in_flat_map. exists r. split; [exact Hr|].
    unfold rep_entry. rewrite Ec, (HQ c Hq), Esup. left. reflexivity.
Qed.

(* a stored name counts: C06 reads it as that name as the other pod declares it *)
Definition covered (c : connset) (q : proto) (y : pref) (n : Z) : bool :=
  cs_denote c q n || match y with ByName nm => has_name c q nm | ByNum _ => false end.
(* on egress the other pod may give a name to any port *)
Definition may_refer (ingress : bool) (y : pref) (n : Z) : Prop :=
  match y with ByNum m => m = n | ByName _ => ingress = false end.

Lemma covered_nonempty c q y n : covered c q y n = true -> cs_isempty c = false.
Proof.
  intros H. destruct (cs_isempty c) eqn:E; [|reflexivity]. unfold covered in H.
  rewrite (cs_isempty_denote c q n E) in H. apply cs_isempty_spec in E. destruct E as [_ En].
  unfold has_name in H. rewrite En in H. destruct y; discriminate H.
Qed.

(* a name of a contained set is stored in the containing one too, or the protocol there holds all the port numbers *)
Lemma covered_containedin c cw q y n :
  cs_wf c -> cs_wf cw -> valid_port n = true -> cs_containedin c cw = true ->
  covered c q y n = true -> covered cw q y n = true.
Proof.
  intros Hc Hw Hv Hcont Hcov. unfold covered in *. apply orb_true_iff in Hcov. destruct Hcov as [Hd|Hn].
  - rewrite (cs_containedin_sound c cw Hc Hw Hcont q n Hd). reflexivity.
  - destruct y as [m|nm]; [discriminate Hn|].
    unfold cs_containedin in Hcont. destruct (cs_all cw) eqn:Eall; [rewrite (cs_all_denote cw q n Eall), Hv; reflexivity|].
    destruct (cs_all c); [discriminate Hcont|]. rewrite forallb_protos in Hcont. specialize (Hcont q).
    unfold has_name in *. destruct (cs_get c q) as [ps|]; [|discriminate Hn].
    destruct (cs_get cw q) as [ops|] eqn:Eo; [|discriminate Hcont].
    unfold ps_containedin in Hcont. apply andb_true_iff in Hcont. destruct Hcont as [_ Hnames].
    destruct (ps_named ps) as [|n0 ns] eqn:En; [discriminate Hn|]. apply orb_true_iff in Hnames. destruct Hnames as [Hfull|Hall].
    + apply iset_eqb_spec in Hfull. rewrite cs_denote_eq, Eall, Eo, Hv. cbn [opt_mem orb andb]. rewrite Hfull.
      change (ifull minPort maxPort) with (ps_ports (ps_make true)). rewrite ps_full_mem, Hv. reflexivity.
    + apply orb_true_iff. right. rewrite forallb_forall in Hall. apply Hall. apply str_mem_In. rewrite <- sset_mem_str_mem. exact Hn.
Qed.

Lemma covered_intro c sel (HH : netpol -> proto -> pref -> bool) ingress np q y n :
  cs_holds ingress c (fun q y => existsb (fun np => HH np q y) sel) -> In np sel -> valid_port n = true ->
  HH np q y = true -> may_refer ingress y n -> covered c q y n = true.
Proof.
  intros (_ & Hn & Hm) Hnp Hv H Hy. unfold covered. destruct y as [m|nm]; cbn [may_refer] in Hy.
  - subst m. rewrite Hn, Hv, orb_false_r. apply existsb_exists. exists np. split; assumption.
  - destruct (cs_all c) eqn:Ea; [rewrite (cs_all_denote c q n Ea), Hv; reflexivity|].
    rewrite (Hm Hy). apply orb_true_iff. right. apply existsb_exists. exists np. split; assumption.
Qed.

(* C07, for a reference [y] to the port (q, n) of the hypothetical pod; the last disjunct is the refinement *)
Theorem governing_rule_covered w reps0 keep p nsl ingress d np rl nss pods hp hnsl q y n :
  forallb netpol_okb (w_nps w) = true -> pod_okb p = true ->
  gen_reps (w_nps w) [] = Ok reps0 ->
  dir_data w p nsl ingress (filter keep reps0) = Ok (Some d) ->
  In np (w_nps w) -> s_np_governs np p (dir_of ingress) = true -> In rl (dir_rules np ingress) ->
  opens rl = true \/
  (In (NPSel nss pods) (nr_peers rl) /\ s_np_peer_matches (np_ns np) (NPSel nss pods) (PPod hp hnsl) = true) ->
  lookup K8sNsNameLabelKey hnsl = Some (p_ns hp) ->
  rule_has (PPod p nsl) ingress rl q y = true -> may_refer ingress y n -> valid_port n = true ->
  (exists e, In e (xd_entries d) /\
             (xe_cluster e = true \/
              (sel_matches_raw (xe_nssel e) hnsl = true /\ sel_matches_raw (xe_podsel e) (p_labels hp) = true)) /\
             covered (xe_conn e) q y n = true) \/
  (exists r0, In r0 reps0 /\ keep r0 = false /\ satisfies hp hnsl r0 /\
              rep_key_eqb (rep_of (np_ns np) (nss, pods)) r0 = true).
Proof.
  intros Hok Hp Hgen Hd Hnp Hgov Hrl Hpeer Hname Hpm Hy Hv.
  set (sel := filter (fun np => s_np_governs np p (dir_of ingress)) (w_nps w)).
  assert (Hnpsel : In np sel) by (apply filter_In; split; assumption).
  assert (Hne : sel <> []) by (intros E; rewrite E in Hnpsel; destruct Hnpsel).
  assert (Hcw := cluster_wide_ok w p nsl ingress Hok Hp). cbn zeta in Hcw. fold sel in Hcw.
  destruct (entries_cover (fun c => covered c q y n = true) w p nsl ingress _ d (fun c => covered_nonempty c q y n) Hd Hne) as [Hcl Hrep].
  fold sel in Hcl, Hrep. destruct (opens rl) eqn:Eop.
  - (* the rule opens the cluster: what it allows is in the entire-cluster connection *)
    left. destruct Hcl as (e & He & Hc & Hq); [|exists e; split; [exact He|split; [left; exact Hc|exact Hq]]].
    exact (covered_intro _ sel _ ingress np q y n Hcw Hnpsel Hv (pol_has_intro opens np _ _ rl q y Hrl Eop Hpm) Hy).
  - destruct Hpeer as [Hop|[Hpe Hmatch]]; [discriminate Hop|].
    destruct (rule_representative _ reps0 np ingress rl nss pods hp hnsl Hgen Hnp (governs_affects np p _ Hgov) Hrl Eop Hpe Hmatch Hname)
      as (r0 & Hr0 & Hkey & Hsat & Hsel).
    destruct (keep r0) eqn:Ekeep; [left|right; exists r0; auto].
    destruct (Hrep r0) as (c & Hc & Hcov); [apply filter_In; split; assumption|].
    assert (Hcn := conns_with_rep_ok w p nsl r0 ingress c Hok Hp Hc Hne). fold sel in Hcn.
    (* the rule selects the representative peer: what it allows is in the connection with that peer *)
    assert (Hq : covered c q y n = true).
    { apply (covered_intro _ sel _ ingress np q y n Hcn Hnpsel Hv); [|exact Hy].
      unfold rep_conns_has. rewrite (pol_has_intro _ np _ _ rl q y Hrl Hsel Hpm). apply orb_true_r. }
    destruct (Hcov Hq (fun Hcont => covered_containedin c _ q y n (proj1 Hcn) (proj1 Hcw) Hv Hcont Hq)) as (e & He & Hs & Hqe).
    exists e. split; [exact He|]. split; [|exact Hqe]. destruct Hs as [Hs|[Hs1 Hs2]]; [left; exact Hs|right].
    rewrite Hs1, Hs2, osel_or_empty_matches. split; apply Hsat.
Qed.

(* C07, for the ports the rules give by number (and, on ingress, by a name of the workload) *)
Theorem governing_rule_is_reported w reps0 keep p nsl ingress d np rl nss pods hp hnsl pr n :
  forallb netpol_okb (w_nps w) = true -> pod_okb p = true ->
  gen_reps (w_nps w) [] = Ok reps0 ->
  dir_data w p nsl ingress (filter keep reps0) = Ok (Some d) ->
  In np (w_nps w) -> s_np_governs np p (dir_of ingress) = true ->
  In rl (dir_rules np ingress) -> In (NPSel nss pods) (nr_peers rl) ->
  s_np_peer_matches (np_ns np) (NPSel nss pods) (PPod hp hnsl) = true ->
  lookup K8sNsNameLabelKey hnsl = Some (p_ns hp) ->
  pmatch (PPod p nsl) ingress rl pr n = true -> valid_port n = true ->
  (exists e, In e (xd_entries d) /\
             (xe_cluster e = true \/
              (sel_matches_raw (xe_nssel e) hnsl = true /\ sel_matches_raw (xe_podsel e) (p_labels hp) = true)) /\
             cs_denote (xe_conn e) pr n = true) \/
  (exists r0, In r0 reps0 /\ keep r0 = false /\ satisfies hp hnsl r0 /\
              rep_key_eqb (rep_of (np_ns np) (nss, pods)) r0 = true).
Proof.
  intros Hok Hp Hgen Hd Hnp Hgov Hrl Hpe Hmatch Hname Hpm Hv.
  destruct (governing_rule_covered w reps0 keep p nsl ingress d np rl nss pods hp hnsl pr (ByNum n) n) as [(e & He & Hs & Hq)|Hr];
    try assumption; [right; split; assumption|reflexivity| |right; exact Hr].
  left. exists e. unfold covered in Hq. rewrite orb_false_r in Hq. auto.
Qed.

(* C07, the refinement: a representative peer is dropped only when it is made of label equalities alone, on both the
   namespace and the pod side, and an existing workload satisfies them *)
Theorem refined_only_by_existing_workload w os r :
  In r (refine_reps w os (r :: nil)) \/
  exists pod_labels ns, In (pod_labels, ns) (flat_map trigger_of os) /\
    exists ps, rp_podsel r = Some ps /\ s_exprs ps = [] /\ s_exprs (rp_nssel r) = [] /\ s_match ps <> [] /\ s_match (rp_nssel r) <> [] /\
               labels_sub (s_match ps) pod_labels = true /\ labels_sub (s_match (rp_nssel r)) (ns_labels_of w ns) = true.
Proof.
  unfold refine_reps. cbn [filter].
  destruct (existsb (fun t => rep_refined_by (fst t) (ns_labels_of w (snd t)) r) (flat_map trigger_of os)) eqn:E; cbn [negb].
  - right. apply existsb_exists in E. destruct E as ([pl ns] & Hin & Href). exists pl, ns. split; [exact Hin|].
    cbn [fst snd] in Href. unfold rep_refined_by in Href. destruct (rp_podsel r) as [ps|]; [|discriminate Href].
    exists ps. split; [reflexivity|].
    destruct (s_exprs ps); [|discriminate Href]. destruct (s_exprs (rp_nssel r)); [|discriminate Href].
    destruct (s_match (rp_nssel r)) as [|a b] eqn:E1; [discriminate Href|]. destruct (s_match ps) as [|a' b'] eqn:E2; [discriminate Href|].
    apply andb_true_iff in Href. destruct Href as [H1 H2].
    split; [reflexivity|]. split; [reflexivity|]. split; [discriminate|]. split; [discriminate|]. split; assumption.
  - left. left. reflexivity.
Qed.
