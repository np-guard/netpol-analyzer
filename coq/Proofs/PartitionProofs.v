(* The IP peers of a report are blocks on which every rule of the input is constant: what the report says of a block is
   true of every single address in it, the admin layers included (C01); the tiling of C05 (PartitionTiles.v) rests on
   the same cut points. *)
From Coq Require Import List ZArith Bool Lia.
From NP Require Import IntervalSet IntervalSetProofs World Spec Build Basics SpecProofs.
Import ListNotations.
Open Scope list_scope.
Open Scope Z_scope.

Fixpoint ssorted (l : list Z) : Prop :=
  match l with
  | [] => True
  | x :: t => (forall y, In y t -> x < y) /\ ssorted t
  end.

Lemma zinsert_in x l y : In y (zinsert x l) <-> In y (x :: l).
Proof.
  induction l as [|z t IH]; cbn [zinsert]; [reflexivity|].
  destruct (x <? z); [reflexivity|]. destruct (Z.eqb_spec x z) as [->|_]; cbn [In] in *.
  - split; [intros H; right; exact H|intros [H|H]; [left; exact H|exact H]].
  - rewrite IH. split; intros [H|[H|H]]; auto.
Qed.

Lemma zinsert_sorted x l : ssorted l -> ssorted (zinsert x l).
Proof.
  induction l as [|z t IH]; cbn [zinsert]; [intros _; split; [intros y []|exact I]|]. intros [Hz Ht].
  destruct (Z.ltb_spec x z) as [Hlt|Hge].
  - repeat split; [|exact Hz|exact Ht]. intros y [<-|Hy]; [exact Hlt|]. specialize (Hz y Hy). lia.
  - destruct (Z.eqb_spec x z) as [->|Hne]; [split; assumption|]. split; [|exact (IH Ht)].
    intros y Hy. apply zinsert_in in Hy. destruct Hy as [<-|Hy]; [lia|exact (Hz y Hy)].
Qed.

(* Build.ip_partition blocks is blocks_of_cuts (cuts_of blocks) *)
Definition cuts_of (blocks : list ivl) : list Z :=
  fold_left (fun acc b => zinsert (fst b) (zinsert (snd b + 1) acc)) blocks [0; maxIP + 1].

Lemma cuts_of_snoc blocks b : cuts_of (blocks ++ [b]) = zinsert (fst b) (zinsert (snd b + 1) (cuts_of blocks)).
Proof. unfold cuts_of. rewrite fold_left_app. reflexivity. Qed.

Lemma cuts_of_sorted blocks : ssorted (cuts_of blocks).
Proof.
  induction blocks as [|b t IH] using rev_ind; [|rewrite cuts_of_snoc; apply zinsert_sorted, zinsert_sorted, IH].
  split; [intros y [<-|[]]; reflexivity|]. split; [intros y []|exact I].
Qed.

Lemma cuts_of_in blocks y :
  In y (cuts_of blocks) <-> In y [0; maxIP + 1] \/ exists b, In b blocks /\ (y = fst b \/ y = snd b + 1).
Proof.
  induction blocks as [|b t IH] using rev_ind; [split; [left; assumption|intros [H|(b & [] & _)]; exact H]|].
  rewrite cuts_of_snoc, zinsert_in. cbn [In]. rewrite zinsert_in. cbn [In]. rewrite IH. split.
  - intros [<-|[<-|[H|(b' & Hb' & Hy)]]].
    + right. exists b. split; [apply in_or_app; right; left; reflexivity|left; reflexivity].
    + right. exists b. split; [apply in_or_app; right; left; reflexivity|right; reflexivity].
    + left. exact H.
    + right. exists b'. split; [apply in_or_app; left; exact Hb'|exact Hy].
  - intros [H|(b' & Hb' & Hy)]; [right; right; left; exact H|].
    apply in_app_or in Hb'. destruct Hb' as [Hb'|[<-|[]]].
    + right. right. right. exists b'. split; assumption.
    + destruct Hy as [-> | ->]; [left|right; left]; reflexivity.
Qed.

Lemma blocks_of_cuts_cons2 a b t : blocks_of_cuts (a :: b :: t) = (a, b - 1) :: blocks_of_cuts (b :: t).
Proof. reflexivity. Qed.

Lemma blocks_fst_in cuts : forall P, In P (blocks_of_cuts cuts) -> In (fst P) cuts.
Proof.
  induction cuts as [|a [|b t] IH]; intros P H; try contradiction.
  rewrite blocks_of_cuts_cons2 in H. destruct H as [<-|H]; [left; reflexivity|right; exact (IH P H)].
Qed.

Lemma blocks_no_cut_inside cuts : ssorted cuts ->
  forall P, In P (blocks_of_cuts cuts) -> fst P <= snd P /\ forall c, In c cuts -> c <= fst P \/ snd P < c.
Proof.
  induction cuts as [|a [|b t] IH]; intros Hs P HP; try contradiction.
  rewrite blocks_of_cuts_cons2 in HP. destruct Hs as [Ha Ht]. destruct HP as [<-|HP]; cbn [fst snd].
  - pose proof (Ha b (or_introl eq_refl)) as Hab. split; [lia|].
    intros c [<-|[<-|Hc]]; [lia|lia|]. destruct Ht as [Hb _]. specialize (Hb c Hc). lia.
  - destruct (IH Ht P HP) as [I1 I2]. split; [exact I1|]. intros c [<-|Hc]; [|exact (I2 c Hc)].
    left. specialize (Ha (fst P) (blocks_fst_in _ P HP)). lia.
Qed.

Theorem interval_constant_on_block blocks I P x y :
  In I blocks -> In P (ip_partition blocks) ->
  fst P <= x <= snd P -> fst P <= y <= snd P -> in_ivl x I = in_ivl y I.
Proof.
  intros HI HP Hx Hy.
  destruct (blocks_no_cut_inside _ (cuts_of_sorted blocks) P HP) as [_ Hno].
  assert (Hlo : In (fst I) (cuts_of blocks)) by (apply cuts_of_in; eauto).
  assert (Hhi : In (snd I + 1) (cuts_of blocks)) by (apply cuts_of_in; eauto).
  apply Hno in Hlo, Hhi. unfold in_ivl. lia.
Qed.

Lemma imem_constant_on_block blocks s P x y :
  incl s blocks -> In P (ip_partition blocks) ->
  fst P <= x <= snd P -> fst P <= y <= snd P -> imem x s = imem y s.
Proof.
  intros Hs HP Hx Hy. rewrite !imem_existsb. apply existsb_ext_in.
  intros v Hv. exact (interval_constant_on_block blocks v P x y (Hs v Hv) HP Hx Hy).
Qed.

Definition peer_block (pe : np_peer) : list ivl :=
  match pe with NPIP cidr exc => rule_block cidr exc | _ => [] end.

Lemma peers_blocks_eq peers : forall l, peers_blocks peers = Ok l -> l = flat_map peer_block peers.
Proof.
  induction peers as [|pe t IH]; intros l H; cbn [peers_blocks] in H; [injection H as <-; reflexivity|].
  destruct pe; try discriminate H; cbn [flat_map peer_block app]; try exact (IH l H).
  bind_inv H as r E. injection H as <-. rewrite (IH r E). reflexivity.
Qed.

Lemma rules_blocks_eq rules : forall l,
  rules_blocks rules = Ok l -> l = flat_map (fun r => flat_map peer_block (nr_peers r)) rules.
Proof.
  induction rules as [|r t IH]; intros l H; cbn [rules_blocks] in H; [injection H as <-; reflexivity|].
  bind_inv H as a Ea. bind_inv H as b Eb. injection H as <-.
  cbn [flat_map]. rewrite (peers_blocks_eq _ _ Ea), (IH b Eb). reflexivity.
Qed.

Lemma referenced_blocks_eq nps : forall l, referenced_blocks nps = Ok l ->
  l = flat_map (fun np => flat_map (fun r => flat_map peer_block (nr_peers r)) (np_in np ++ np_eg np)) nps.
Proof.
  induction nps as [|np t IH]; intros l H; cbn [referenced_blocks] in H; [injection H as <-; reflexivity|].
  bind_inv H as a Ea. bind_inv H as b Eb. bind_inv H as c Ec. injection H as <-.
  cbn [flat_map]. rewrite flat_map_app, (rules_blocks_eq _ _ Ea), (rules_blocks_eq _ _ Eb), (IH c Ec), app_assoc. reflexivity.
Qed.

Lemma referenced_blocks_in nps l np r cidr exc :
  referenced_blocks nps = Ok l -> In np nps -> In r (np_in np ++ np_eg np) -> In (NPIP cidr exc) (nr_peers r) ->
  incl (rule_block cidr exc) l.
Proof.
  intros H Hnp Hr Hpe v Hv. rewrite (referenced_blocks_eq nps l H).
  apply in_flat_map. exists np. split; [exact Hnp|]. apply in_flat_map. exists r. split; [exact Hr|].
  apply in_flat_map. exists (NPIP cidr exc). split; [exact Hpe|exact Hv].
Qed.

Lemma rule_ports_ip ports a b pr n : s_np_rule_ports ports (PIP a) pr n = s_np_rule_ports ports (PIP b) pr n.
Proof. reflexivity. Qed.

Section Uniform.
Variable w : world.
Variable blocks : list ivl.
Hypothesis Hblocks : referenced_blocks (w_nps w) = Ok blocks.
Variables P Q : ivl.
Hypothesis HP : In P (ip_partition blocks).
Hypothesis HQ : fst P <= fst Q /\ fst Q <= snd Q /\ snd Q <= snd P.

Lemma peer_matches_uniform np r pe :
  In np (w_nps w) -> In r (np_in np ++ np_eg np) -> In pe (nr_peers r) ->
  s_np_peer_matches (np_ns np) pe (PIP P) = s_np_peer_matches (np_ns np) pe (PIP Q).
Proof.
  intros Hnp Hr Hpe. destruct pe as [nss pods|cidr exc| | |]; try reflexivity. cbn [s_np_peer_matches].
  assert (Hconst : forall y, fst P <= y <= snd P -> imem y (rule_block cidr exc) = imem (fst Q) (rule_block cidr exc)).
  { intros y Hy. apply (imem_constant_on_block blocks _ P); [|exact HP|exact Hy|lia].
    exact (referenced_blocks_in _ _ np r cidr exc Hblocks Hnp Hr Hpe). }
  destruct P as [a b], Q as [c d]. cbn [fst snd] in *.
  rewrite (isubset_const a b c), (isubset_const c d c); [reflexivity|lia|intros y Hy; apply Hconst; lia|lia|exact Hconst].
Qed.

(* The NetworkPolicy layer: [src'], [dst'] are [src], [dst] with the block at the other end replaced by a part of it. *)
Theorem only_dir_uniform src dst src' dst' (ing : bool) pr n :
  (if ing then dst else src) = (if ing then dst' else src') ->
  (if ing then src else dst) = PIP P -> (if ing then src' else dst') = PIP Q ->
  s_np_only_dir w src dst ing pr n = s_np_only_dir w src' dst' ing pr n.
Proof.
  intros Hself Ho Ho'.
  assert (Hports : forall ports, s_np_rule_ports ports dst pr n = s_np_rule_ports ports dst' pr n).
  { intros ports. destruct ing; [rewrite Hself; reflexivity|]. rewrite Ho, Ho'. apply rule_ports_ip. }
  rewrite !s_np_only_dir_eq, <- Hself. destruct (if ing then dst else src) as [p nsl|]; [|reflexivity].
  destruct (existsb _ (w_nps w)); [|reflexivity]. apply existsb_ext_in. intros np Hnp. f_equal.
  unfold s_np_policy_allows. rewrite Ho, Ho'. apply existsb_ext_in. intros r Hr. unfold s_np_rule. rewrite Hports. f_equal.
  unfold s_np_rule_peers. destruct (nr_peers r) as [|pe0 pt] eqn:Epe; [reflexivity|]. rewrite <- Epe.
  apply existsb_ext_in. intros pe Hpe. apply (peer_matches_uniform np r pe Hnp); [|exact Hpe].
  apply in_or_app. destruct ing; [left|right]; exact Hr.
Qed.
End Uniform.

(* Admin policies do not speak of a connection with an address at either end. *)
Lemma admin_peer_ip ap a : s_admin_peer_matches ap (PIP a) = false.
Proof. destruct ap; reflexivity. Qed.

Lemma admin_selects_ip subj rules a : s_admin_selects subj rules (PIP a) = false.
Proof. unfold s_admin_selects. destruct rules; [reflexivity|apply admin_peer_ip]. Qed.

Lemma rules_verdict_ip_other rules a dst pr n : s_rules_verdict rules (PIP a) dst pr n = VNone.
Proof.
  induction rules as [|r t IH]; cbn [s_rules_verdict]; [reflexivity|]. unfold s_admin_rule_matches.
  rewrite (existsb_ext _ (fun _ => false)), existsb_false by (intros ap; apply admin_peer_ip). exact IH.
Qed.

Lemma admin_verdict_ip subj rules src dst ing pr n :
  peer_is_ip src || peer_is_ip dst = true -> s_admin_verdict subj rules src dst ing pr n = VNone.
Proof.
  intros H. unfold s_admin_verdict.
  destruct ing, src, dst; try discriminate H; rewrite ?admin_selects_ip, ?rules_verdict_ip_other; try reflexivity.
  all: destruct (s_admin_selects _ _ _); reflexivity.
Qed.

Lemma anps_verdict_ip anps src dst ing pr n :
  peer_is_ip src || peer_is_ip dst = true -> s_anps_verdict anps src dst ing pr n = VNone.
Proof.
  intros H. induction anps as [|a t IH]; [reflexivity|]. rewrite s_anps_verdict_cons, admin_verdict_ip by exact H. exact IH.
Qed.

Lemma s_dir_allows_ip w src dst ing pr n :
  peer_is_ip src || peer_is_ip dst = true -> s_dir_allows w src dst ing pr n = s_np_only_dir w src dst ing pr n.
Proof.
  intros H. unfold s_dir_allows, s_np_only_dir. rewrite anps_verdict_ip, s_banp_allows_eq by exact H.
  destruct (s_np_layer w src dst ing pr n); [reflexivity|]. destruct (w_banp w); [|reflexivity].
  rewrite admin_verdict_ip by exact H. reflexivity.
Qed.

(* and the address itself is governed by nothing: only the direction of the other end is left *)
Lemma s_allows_from_ip w a dst pr n : s_allows w (PIP a) dst pr n = s_np_only_dir w (PIP a) dst true pr n.
Proof. unfold s_allows. rewrite !s_dir_allows_ip by reflexivity. reflexivity. Qed.

Lemma s_allows_to_ip w src a pr n : s_allows w src (PIP a) pr n = s_np_only_dir w src (PIP a) false pr n.
Proof. unfold s_allows. rewrite !s_dir_allows_ip by (destruct src; reflexivity). apply andb_true_r. Qed.

Theorem block_answer_holds_for_every_subrange w blocks P Q :
  referenced_blocks (w_nps w) = Ok blocks -> In P (ip_partition blocks) ->
  fst P <= fst Q /\ fst Q <= snd Q /\ snd Q <= snd P ->
  (forall dst pr n, s_allows w (PIP P) dst pr n = s_allows w (PIP Q) dst pr n) /\
  (forall src pr n, s_allows w src (PIP P) pr n = s_allows w src (PIP Q) pr n).
Proof.
  intros Hb HP HQ. split; intros z pr n.
  - rewrite !s_allows_from_ip. apply (only_dir_uniform w blocks Hb P Q HP HQ); reflexivity.
  - rewrite !s_allows_to_ip. apply (only_dir_uniform w blocks Hb P Q HP HQ); reflexivity.
Qed.
