(* The set-based evaluation of Model/Eval.v computes, whenever it succeeds, exactly the pointwise meaning of
   Model/Spec.v, and every set it produces is in canonical form.  The proofs go through [cs_has]: Union, Subtract,
   Intersection and AddConnection act on the function of a set as "or", "and not", "and", "or", so that every level
   of the evaluation only has to say which function it computes. *)
From Coq Require Import List ZArith Bool Lia.
From NP Require Import IntervalSet ConnSet ConnSetProofs World Eval Spec SpecProofs Basics.
Import ListNotations.
Open Scope list_scope.
Open Scope Z_scope.

Lemma cs_denote_valid c p n : cs_denote c p n = true -> valid_port n = true.
Proof. unfold cs_denote. intros H. apply andb_true_iff in H. apply H. Qed.

(* Well-formed inputs: port numbers within 1..65535. *)
Definition range_okb (a e : Z) : bool := (e <? a) || ((minPort <=? a) && (e <=? maxPort)).

Definition np_port_okb (pp : np_port) : bool :=
  match pp_port pp with
  | PNum a => range_okb a (match pp_end pp with Some e => e | None => a end)
  | _ => true
  end.
Definition np_rule_okb (r : np_rule) : bool := forallb np_port_okb (nr_ports r).
Definition netpol_okb (np : netpol) : bool := forallb np_rule_okb (np_in np) && forallb np_rule_okb (np_eg np).

Definition admin_port_okb (ap : admin_port) : bool :=
  match ap with
  | APortNum _ n => valid_port n
  | APortRange _ lo hi => range_okb lo hi
  | _ => true
  end.
Definition admin_rule_okb (r : admin_rule) : bool :=
  match ar_ports r with None => true | Some l => forallb admin_port_okb l end.
Definition anp_okb (a : anp) : bool := forallb admin_rule_okb (a_in a) && forallb admin_rule_okb (a_eg a).
Definition banp_okb (b : banp) : bool := forallb admin_rule_okb (b_in b) && forallb admin_rule_okb (b_eg b).

Definition pod_okb (p : pod) : bool := forallb (fun c => valid_port (cp_num c)) (p_ports p).
Definition peer_okb (x : peer) : bool :=
  match x with PPod p _ => pod_okb p | PIP _ => true end.

Definition world_okb (w : world) : bool :=
  forallb netpol_okb (w_nps w) && forallb anp_okb (w_anps w) &&
  match w_banp w with None => true | Some b => banp_okb b end.

Lemma world_ok_parts w : world_okb w = true ->
  forallb netpol_okb (w_nps w) = true /\ forallb anp_okb (w_anps w) = true /\
  match w_banp w with None => true | Some b => banp_okb b end = true.
Proof.
  unfold world_okb. intros H. apply andb_true_iff in H. destruct H as [H H3].
  apply andb_true_iff in H. destruct H as [H1 H2]. auto.
Qed.

Lemma range_ok_wf a e : range_okb a e = true -> ps_wf (ps_add_range (ps_make false) a e).
Proof.
  intros H. unfold range_okb in H.
  destruct (e <? a) eqn:Hlt.
  - unfold ps_add_range, iadd_ivl. cbn [fst snd].
    assert (Hle : (a <=? e) = false) by (clear - Hlt; lia). rewrite Hle. apply (ps_make_wf false).
  - cbn [orb] in H. apply ps_add_range_wf; [apply ps_make_wf | clear - H; lia | clear - H; lia].
Qed.

Lemma range_mem a e n :
  imem n (ps_ports (ps_add_range (ps_make false) a e)) = (a <=? n) && (n <=? e).
Proof.
  rewrite ps_add_range_ports.
  unfold ps_make. cbn [ps_ports imem orb]. unfold in_ivl. reflexivity.
Qed.

(* for ExposureProofs *)
Lemma range_ok_valid a e n :
  range_okb a e = true -> (a <=? n) && (n <=? e) = true -> valid_port n = true.
Proof. unfold range_okb, valid_port. intros H1 H2. lia. Qed.

Lemma range_ok_single m : valid_port m = true -> range_okb m m = true.
Proof. unfold range_okb, valid_port. intros ->. apply orb_true_r. Qed.

Lemma single_port_wf m : valid_port m = true -> ps_wf (ps_add_range (ps_make false) m m).
Proof. intros H. apply range_ok_wf, range_ok_single, H. Qed.

Lemma pod_named_port_valid d nm q m :
  pod_okb d = true -> pod_named_port (p_ports d) nm = Some (q, m) -> valid_port m = true.
Proof.
  unfold pod_okb. induction (p_ports d) as [|c t IH]; [discriminate|].
  cbn [pod_named_port forallb]. intros Hd Hnp. apply andb_true_iff in Hd. destruct Hd as [Hc Ht].
  destruct (String.eqb nm (cp_name c)); [injection Hnp as _ <-; exact Hc | apply IH; assumption].
Qed.

Definition cs_has (I : connset -> Prop) (c : connset) (f : proto -> Z -> bool) : Prop :=
  I c /\ forall pr n, cs_denote c pr n = valid_port n && f pr n.
Definition cs_is := cs_has cs_ninv.
Definition cs_rule := cs_has cs_tidy.

Lemma cs_has_ext {I c f g} :
  cs_has I c f -> (forall pr n, valid_port n = true -> f pr n = g pr n) -> cs_has I c g.
Proof.
  intros [Hi Hd] E. split; [exact Hi|]. intros pr n. rewrite Hd.
  destruct (valid_port n) eqn:Hv; [rewrite (E pr n Hv)|]; reflexivity.
Qed.

Lemma cs_has_skip {I c f} : cs_has I c f -> cs_has I c (fun pr n => f pr n || false).
Proof. intros H. apply (cs_has_ext H). intros pr n _. symmetry. apply orb_false_r. Qed.

Lemma cs_has_impl {I J : connset -> Prop} {c f} : (I c -> J c) -> cs_has I c f -> cs_has J c f.
Proof. intros H [Hi Hd]. split; [exact (H Hi) | exact Hd]. Qed.

Lemma cs_is_rule {c f} : cs_is c f -> cs_rule c f.
Proof. apply cs_has_impl, cs_ninv_tidy. Qed.

Lemma cs_is_make b : cs_is (cs_make b) (fun _ _ => b).
Proof. split; [apply cs_make_ninv|]. intros pr n. apply cs_make_denote. Qed.

Lemma cs_has_empty {I c f} pr n :
  cs_has I c f -> cs_isempty c = true -> valid_port n = true -> f pr n = false.
Proof. intros [_ Hd] He Hv. rewrite <- (cs_isempty_denote c pr n He), Hd, Hv. reflexivity. Qed.

Lemma cs_has_all {I c f} pr n :
  cs_has I c f -> cs_all c = true -> valid_port n = true -> f pr n = true.
Proof.
  intros [_ Hd] Ha Hv. specialize (Hd pr n). rewrite (cs_all_denote c pr n Ha), Hv in Hd.
  symmetry. exact Hd.
Qed.

Lemma cs_is_union {c o f g} :
  cs_is c f -> cs_rule o g -> cs_is (cs_union c o) (fun pr n => f pr n || g pr n).
Proof.
  intros [Hc Hf] [Ho Hg]. split; [apply cs_union_good_ninv; [exact Hc | apply Ho]|].
  intros pr n. rewrite cs_union_denote, Hf, Hg by (first [apply cs_ninv_wf; assumption | apply cs_tidy_wf; assumption]).
  destruct (valid_port n); reflexivity.
Qed.

Lemma cs_rule_subtract {c o f g} :
  cs_rule c f -> cs_is o g -> cs_rule (cs_subtract c o) (fun pr n => f pr n && negb (g pr n)).
Proof.
  intros [Hc Hf] [Ho Hg]. split; [apply cs_subtract_tidy; assumption|].
  intros pr n. rewrite cs_subtract_denote, Hf, Hg by (first [apply cs_ninv_wf; assumption | apply cs_tidy_wf; assumption]).
  destruct (valid_port n); reflexivity.
Qed.

Lemma cs_is_subtract {c o f g} :
  cs_is c f -> cs_is o g -> cs_is (cs_subtract c o) (fun pr n => f pr n && negb (g pr n)).
Proof.
  intros Hc Ho. split; [apply cs_subtract_ninv; [apply Hc | apply Ho]|].
  apply (cs_rule_subtract (cs_is_rule Hc) Ho).
Qed.

Lemma cs_is_inter {c o f g} :
  cs_is c f -> cs_is o g -> cs_is (cs_inter c o) (fun pr n => f pr n && g pr n).
Proof.
  intros [Hc Hf] [Ho Hg]. split; [apply cs_inter_ninv; assumption|].
  intros pr n. rewrite cs_inter_denote, Hf, Hg by (first [apply cs_ninv_wf; assumption | apply Hc]).
  destruct (valid_port n); reflexivity.
Qed.

(* the shape in which a rule's set reaches one component of the Allowed / Denied / Pass triple *)
Lemma cs_is_union_sub2 {x rc a b fx m fa fb} :
  cs_is x fx -> cs_rule rc m -> cs_is a fa -> cs_is b fb ->
  cs_is (cs_union x (cs_subtract (cs_subtract rc a) b))
        (fun pr n => fx pr n || m pr n && negb (fa pr n) && negb (fb pr n)).
Proof. intros Hx Hrc Ha Hb. exact (cs_is_union Hx (cs_rule_subtract (cs_rule_subtract Hrc Ha) Hb)). Qed.

Lemma cs_pre_start : cs_has cs_pre (cs_make false) (fun _ _ => false).
Proof. split; [exact cs_make_false_pre|]. intros pr n. apply cs_make_denote. Qed.

Lemma cs_pre_addconn {res f} p {ps} :
  cs_has cs_pre res f -> ps_wf ps -> ps_numeric ps ->
  cs_has cs_pre (cs_addconn res p ps) (fun pr n => f pr n || proto_eqb p pr && imem n (ps_ports ps)).
Proof.
  intros [Hres Hf] Hwf Hnum. split; [apply cs_addconn_pre; assumption|].
  intros pr n. rewrite cs_addconn_denote, Hf by (first [apply Hres | exact Hwf]).
  destruct (valid_port n) eqn:Hv; [reflexivity|].
  destruct (imem n (ps_ports ps)) eqn:Hm; [|apply andb_false_r].
  rewrite (ps_wf_mem_valid ps n Hwf Hm) in Hv. discriminate Hv.
Qed.

Lemma cs_pre_addconn_range {res f} p {a e} :
  cs_has cs_pre res f -> range_okb a e = true ->
  cs_has cs_pre (cs_addconn res p (ps_add_range (ps_make false) a e))
         (fun pr n => f pr n || proto_eqb p pr && ((a <=? n) && (n <=? e))).
Proof.
  intros Hres Hr. apply (cs_has_ext (cs_pre_addconn p Hres (range_ok_wf a e Hr) (ps_make_numeric false))).
  intros pr n _. rewrite range_mem. reflexivity.
Qed.

(* the walks over ports, rules and policies all thread an accumulator through a list *)
Section Fold.
  Context {A : Type} (I : connset -> Prop) (run : list A -> connset -> outcome connset)
          (okx : A -> bool) (m : A -> proto -> Z -> bool).
  Hypothesis run_nil : forall acc, run [] acc = Ok acc.
  Hypothesis run_cons : forall x t acc f c,
    okx x = true -> cs_has I acc f -> run (x :: t) acc = Ok c ->
    exists acc', run t acc' = Ok c /\ cs_has I acc' (fun pr n => f pr n || m x pr n).

  Lemma fold_has l : forall acc f c,
    forallb okx l = true -> cs_has I acc f -> run l acc = Ok c ->
    cs_has I c (fun pr n => f pr n || existsb (fun x => m x pr n) l).
  Proof.
    induction l as [|x t IH]; intros acc f c Hok Hacc H.
    - rewrite run_nil in H. injection H as <-. exact (cs_has_skip Hacc).
    - cbn [forallb] in Hok. apply andb_true_iff in Hok. destruct Hok as [Hx Ht].
      destruct (run_cons x t acc f c Hx Hacc H) as (acc' & H' & Hacc').
      apply (cs_has_ext (IH acc' _ c Ht Hacc' H')). intros pr n _. symmetry. apply orb_assoc.
  Qed.
End Fold.

Lemma sel_matches_ok s l b : sel_matches s l = Ok b -> b = sel_matches_raw s l.
Proof. unfold sel_matches. destruct (sel_valid s); intros H; [injection H as <-; reflexivity | discriminate H]. Qed.

Lemma sel_empty_raw s l : sel_empty s = true -> sel_matches_raw s l = true.
Proof.
  unfold sel_empty, sel_matches_raw. destruct (s_match s); [|discriminate].
  destruct (s_exprs s); [|discriminate]. reflexivity.
Qed.

Lemma opt_sel_ok s l dflt b :
  match s with None => Ok dflt | Some x => sel_matches x l end = Ok b -> b = s_opt_sel s l dflt.
Proof. destruct s; [apply sel_matches_ok | intros H; injection H as <-; reflexivity]. Qed.

Lemma np_peers_select_ok npns peers x b :
  np_peers_select npns peers x = Ok b -> b = existsb (fun pr => s_np_peer_matches npns pr x) peers.
Proof.
  revert b. induction peers as [|pr t IH]; intros b H; cbn [np_peers_select existsb] in *.
  - injection H as <-. reflexivity.
  - destruct pr as [nss pods | cidr exc | | |], x as [p nsl | bl]; try discriminate H;
      cbn [s_np_peer_matches orb]; try (apply IH; exact H).
    + bind_inv H as nsm Hn. apply opt_sel_ok in Hn. rewrite <- Hn.
      destruct nsm; cbn [negb andb orb] in *; [|apply IH; exact H].
      bind_inv H as pm Hp. apply opt_sel_ok in Hp. rewrite <- Hp.
      destruct pm; [injection H as <-; reflexivity | apply IH; exact H].
    + destruct (isubset [bl] (rule_block cidr exc)); [injection H as <-; reflexivity | apply IH; exact H].
Qed.

Lemma np_rule_selects_ok npns peers x b :
  np_rule_selects npns peers x = Ok b -> b = s_np_rule_peers npns peers x.
Proof.
  unfold np_rule_selects, s_np_rule_peers. destruct peers as [|pr t].
  - intros H; injection H as <-; reflexivity.
  - apply np_peers_select_ok.
Qed.

Lemma get_ports_range_ok pp dst r :
  pp_port pp <> PAll -> get_ports_range pp dst = Ok r ->
  (forall pr n, proto_eqb (pp_proto pp) pr &&
                match r with None => false | Some (s, e) => (s <=? n) && (n <=? e) end
                = s_np_port_matches pp dst pr n) /\
  (peer_okb dst = true -> np_port_okb pp = true -> forall s e, r = Some (s, e) -> range_okb s e = true).
Proof.
  unfold get_ports_range, s_np_port_matches, np_port_okb.
  destruct (pp_port pp) as [|a|nm]; [contradiction| |]; intros _ H.
  - injection H as <-. split; [reflexivity|]. intros _ Hp s e E. injection E as <- <-. exact Hp.
  - destruct dst as [d nsl|bl]; [|discriminate H].
    destruct (pod_named_port (p_ports d) nm) as [[q m]|] eqn:Hnp; [destruct (proto_eqb q (pp_proto pp))|];
      injection H as <-; (split; [intros pr n; rewrite ?leb_antisym_eqb; reflexivity|]);
      intros Hd _ s e E; [|discriminate E..].
    injection E as <- <-. exact (range_ok_single m (pod_named_port_valid d nm q m Hd Hnp)).
Qed.

Lemma np_ports_conns_has ports dst res f c :
  peer_okb dst = true -> forallb np_port_okb ports = true -> cs_has cs_pre res f ->
  np_ports_conns ports dst res = Ok c ->
  cs_has cs_pre c (fun pr n => f pr n || existsb (fun pp => s_np_port_matches pp dst pr n) ports).
Proof.
  intros Hd.
  apply (fold_has cs_pre (fun l => np_ports_conns l dst) np_port_okb (fun pp => s_np_port_matches pp dst));
    [reflexivity|].
  clear res f c. intros pp t res f c Hpp Hres H. cbn [np_ports_conns] in H. bind_inv H as ps Hps.
  exists (cs_addconn res (pp_proto pp) ps). split; [exact H|]. clear H.
  assert (Hrange : forall r, pp_port pp <> PAll -> get_ports_range pp dst = Ok r ->
            cs_has cs_pre
              (cs_addconn res (pp_proto pp)
                 (match r with None => ps_make false | Some (s, e) => ps_add_range (ps_make false) s e end))
              (fun pr n => f pr n || s_np_port_matches pp dst pr n)).
  { intros r Hna Hr. destruct (get_ports_range_ok pp dst r Hna Hr) as [Hm Hok]. destruct r as [[s e]|].
    - apply (cs_has_ext (cs_pre_addconn_range (pp_proto pp) Hres (Hok Hd Hpp s e eq_refl))).
      intros pr n _. rewrite <- Hm. reflexivity.
    - apply (cs_has_ext (cs_has_skip Hres)). intros pr n _. rewrite <- Hm, andb_false_r. reflexivity. }
  destruct (pp_port pp) as [|a|nm] eqn:Hport;
    [|bind_inv Hps as r Hr; injection Hps as <-; apply Hrange; [discriminate | exact Hr] ..].
  injection Hps as <-.
  apply (cs_has_ext (cs_pre_addconn (pp_proto pp) Hres (ps_make_wf true) (ps_make_numeric true))).
  intros pr n Hv. unfold s_np_port_matches. rewrite Hport, ps_full_mem, Hv. reflexivity.
Qed.

Lemma np_rule_conns_ok ports dst c :
  peer_okb dst = true -> forallb np_port_okb ports = true ->
  np_rule_conns ports dst = Ok c ->
  cs_rule c (s_np_rule_ports ports dst).
Proof.
  intros Hd Hok H. unfold np_rule_conns in H. destruct ports as [|pp t].
  - injection H as <-. exact (cs_is_rule (cs_is_make true)).
  - exact (cs_has_impl (cs_pre_tidy c) (np_ports_conns_has _ _ _ _ _ Hd Hok cs_pre_start H)).
Qed.

Lemma np_rules_conns_has npns rules other dst res f c :
  peer_okb dst = true -> forallb np_rule_okb rules = true -> cs_is res f ->
  np_rules_conns npns rules other dst res = Ok c ->
  cs_is c (fun pr n => f pr n || existsb (fun r => s_np_rule npns r other dst pr n) rules).
Proof.
  intros Hd.
  apply (fold_has cs_ninv (fun l => np_rules_conns npns l other dst) np_rule_okb
                  (fun r => s_np_rule npns r other dst)); [reflexivity|].
  clear res f c. intros r t res f c Hr Hres H. cbn [np_rules_conns] in H.
  bind_inv H as sel Hsel. apply np_rule_selects_ok in Hsel. unfold s_np_rule. rewrite <- Hsel.
  destruct sel; cbn [negb] in H.
  - bind_inv H as rc Hrc. exists (cs_union res rc). split; [exact H|].
    exact (cs_is_union Hres (np_rule_conns_ok _ _ _ Hd Hr Hrc)).
  - exists res. split; [exact H | exact (cs_has_skip Hres)].
Qed.

Lemma np_affects_eq np d : np_affects np d = s_np_affects np d.
Proof.
  unfold np_affects, s_np_affects. destruct (np_types np); [|reflexivity].
  destruct d; [reflexivity|]. destruct (np_eg np); reflexivity.
Qed.

Lemma np_selects_ok np p d b : np_selects np p d = Ok b -> b = s_np_governs np p d.
Proof.
  unfold np_selects, s_np_governs. rewrite np_affects_eq.
  destruct (String.eqb (p_ns p) (np_ns np)); cbn [negb andb]; [|intros H; injection H as <-; reflexivity].
  destruct (s_np_affects np d); cbn [negb andb]; [|intros H; injection H as <-; reflexivity].
  destruct (sel_empty (np_sel np)) eqn:He.
  - intros H; injection H as <-. symmetry. apply sel_empty_raw. exact He.
  - apply sel_matches_ok.
Qed.

Lemma selecting_nps_ok nps p d : forall l,
  selecting_nps nps p d = Ok l -> l = filter (fun np => s_np_governs np p d) nps.
Proof.
  induction nps as [|np t IH]; intros l H; cbn [selecting_nps] in H.
  - injection H as <-. reflexivity.
  - bind_inv H as s Hs. bind_inv H as rest Hr. injection H as <-.
    apply np_selects_ok in Hs. cbn [filter]. rewrite <- Hs, <- (IH rest Hr). reflexivity.
Qed.

Lemma np_dir_conns_eq np src dst ingress :
  np_dir_conns np src dst ingress =
  np_rules_conns (np_ns np) (if ingress then np_in np else np_eg np) (if ingress then src else dst) dst (cs_make false).
Proof. destruct ingress; reflexivity. Qed.

Lemma np_dir_conns_ok np src dst ingress c :
  peer_okb dst = true -> netpol_okb np = true ->
  np_dir_conns np src dst ingress = Ok c ->
  cs_is c (s_np_policy_allows np src dst ingress).
Proof.
  intros Hd Hok H. rewrite np_dir_conns_eq in H.
  exact (np_rules_conns_has _ _ _ _ _ _ _ Hd (forallb_dir _ ingress _ _ Hok) (cs_is_make false) H).
Qed.

Lemma nps_union_conns_has sel src dst ingress acc f c :
  peer_okb dst = true -> forallb netpol_okb sel = true -> cs_is acc f ->
  nps_union_conns sel src dst ingress acc = Ok c ->
  cs_is c (fun pr n => f pr n || existsb (fun np => s_np_policy_allows np src dst ingress pr n) sel).
Proof.
  intros Hd.
  apply (fold_has cs_ninv (fun l => nps_union_conns l src dst ingress) netpol_okb
                  (fun np => s_np_policy_allows np src dst ingress)); [reflexivity|].
  clear acc f c. intros np t acc f c Hnp Hacc H. cbn [nps_union_conns] in H. bind_inv H as pc Hpc.
  exists (cs_union acc pc). split; [exact H|].
  exact (cs_is_union Hacc (cs_is_rule (np_dir_conns_ok _ _ _ _ _ Hd Hnp Hpc))).
Qed.

Lemma np_layer_ok w src dst ingress r :
  peer_okb dst = true -> forallb netpol_okb (w_nps w) = true ->
  np_layer w src dst ingress = Ok r ->
  match r with
  | None => forall pr n, s_np_layer w src dst ingress pr n = None
  | Some c => cs_ninv c /\
              forall pr n, exists b, s_np_layer w src dst ingress pr n = Some b /\
                                     cs_denote c pr n = valid_port n && b
  end.
Proof.
  intros Hd Hok H. unfold np_layer in H. unfold s_np_layer.
  destruct (if ingress then dst else src) as [p nsl | bl]; [|injection H as <-; reflexivity].
  bind_inv H as sel Hs. apply selecting_nps_ok in Hs. rewrite <- Hs.
  destruct sel as [|np t]; [injection H as <-; reflexivity|].
  bind_inv H as c Hc. injection H as <-.
  assert (Hok' : forallb netpol_okb (np :: t) = true) by (rewrite Hs; apply forallb_filter; exact Hok).
  destruct (nps_union_conns_has _ _ _ _ _ _ _ Hd Hok' (cs_is_make false) Hc) as [Hcn Hden].
  split; [exact Hcn|]. intros pr n. eexists. split; [reflexivity | apply Hden].
Qed.

Lemma admin_peer_matches_ok ap x b : admin_peer_matches ap x = Ok b -> b = s_admin_peer_matches ap x.
Proof.
  unfold admin_peer_matches, s_admin_peer_matches. destruct ap as [s | nss pods |]; [| |discriminate].
  - destruct x; [apply sel_matches_ok | intros H; injection H as <-; reflexivity].
  - destruct x as [p nsl|bl]; intros H; [|injection H as <-; reflexivity].
    bind_inv H as a Ha. bind_inv H as c Hc. injection H as <-.
    apply sel_matches_ok in Ha, Hc. subst. reflexivity.
Qed.

Lemma admin_peers_select_ok peers x : forall b,
  admin_peers_select peers x = Ok b -> b = existsb (fun ap => s_admin_peer_matches ap x) peers.
Proof.
  induction peers as [|ap t IH]; intros b H; cbn [admin_peers_select] in H.
  - injection H as <-. reflexivity.
  - bind_inv H as m Hm. apply admin_peer_matches_ok in Hm. cbn [existsb]. rewrite <- Hm.
    destruct m; [injection H as <-; reflexivity | apply IH; exact H].
Qed.

Lemma subject_selects_ok subj x b : subject_selects subj x = Ok b -> b = s_admin_peer_matches subj x.
Proof. unfold subject_selects. destruct subj; try discriminate; apply admin_peer_matches_ok. Qed.

Lemma admin_selects_ok subj rules x b :
  admin_selects subj rules x = Ok b -> b = s_admin_selects subj rules x.
Proof.
  unfold admin_selects, s_admin_selects. destruct x as [p nsl|bl].
  - destruct rules; [intros H; injection H as <-; reflexivity | apply subject_selects_ok].
  - intros H; injection H as <-. destruct rules; [reflexivity|]. destruct subj; reflexivity.
Qed.

Lemma admin_ports_conns_has ports dst res f c :
  peer_okb dst = true -> forallb admin_port_okb ports = true -> cs_has cs_pre res f ->
  admin_ports_conns ports dst res = Ok c ->
  cs_has cs_pre c (fun pr n => f pr n || existsb (fun ap => s_admin_port_matches ap dst pr n) ports).
Proof.
  intros Hd.
  apply (fold_has cs_pre (fun l => admin_ports_conns l dst) admin_port_okb
                  (fun ap => s_admin_port_matches ap dst)); [reflexivity|].
  clear res f c. intros ap t res f c Hap Hres H.
  assert (Hsingle : forall p m, valid_port m = true ->
            cs_has cs_pre (cs_addconn res p (ps_add_range (ps_make false) m m))
                   (fun pr n => f pr n || proto_eqb p pr && (m =? n))).
  { intros p m Hm. apply (cs_has_ext (cs_pre_addconn_range p Hres (range_ok_single m Hm))).
    intros pr n _. rewrite leb_antisym_eqb. reflexivity. }
  destruct ap as [p a | p lo hi | nm |]; cbn [admin_ports_conns admin_port_okb s_admin_port_matches] in *;
    [| | |discriminate H].
  - eexists. split; [exact H | exact (Hsingle p a Hap)].
  - eexists. split; [exact H|]. apply (cs_has_ext (cs_pre_addconn_range p Hres Hap)).
    intros pr n _. rewrite andb_assoc. reflexivity.
  - destruct dst as [d nsl | bl]; [|eexists; split; [exact H | exact (cs_has_skip Hres)]].
    destruct (pod_named_port (p_ports d) nm) as [[q m]|] eqn:Hnp;
      [|eexists; split; [exact H | exact (cs_has_skip Hres)]].
    eexists. split; [exact H | exact (Hsingle q m (pod_named_port_valid d nm q m Hd Hnp))].
Qed.

Lemma admin_rule_conns_ok ports dst c :
  peer_okb dst = true -> match ports with None => true | Some l => forallb admin_port_okb l end = true ->
  admin_rule_conns ports dst = Ok c ->
  cs_rule c (fun pr n => match ports with
                         | None => true
                         | Some l => existsb (fun ap => s_admin_port_matches ap dst pr n) l
                         end).
Proof.
  intros Hd Hok H. unfold admin_rule_conns in H. destruct ports as [l|].
  - exact (cs_has_impl (cs_pre_tidy c) (admin_ports_conns_has _ _ _ _ _ Hd Hok cs_pre_start H)).
  - injection H as <-. exact (cs_is_rule (cs_is_make true)).
Qed.

Definition isA (v : verdict) : bool := match v with VAllow => true | _ => false end.
Definition isD (v : verdict) : bool := match v with VDeny => true | _ => false end.
Definition isP (v : verdict) : bool := match v with VPass => true | _ => false end.
(* earlier verdict wins: pointwise, what `UpdateWithRuleConns` / `CollectANPConns` (policy_connections.go) do by
   subtracting what is already decided; the right side of SpecProofs.s_anps_verdict_cons is literally a [vcomp] *)
Definition vcomp (v1 v2 : verdict) : verdict := match v1 with VNone => v2 | _ => v1 end.

Lemma vcomp_assoc v1 v2 v3 : vcomp (vcomp v1 v2) v3 = vcomp v1 (vcomp v2 v3).
Proof. destruct v1; reflexivity. Qed.
Lemma vcomp_none_r v : vcomp v VNone = v.
Proof. destruct v; reflexivity. Qed.

(* [pc_ok], [pc_repr]: the unfolded form C02 quotes; unused below *)
Definition pc_ok (pc : pconns) : Prop :=
  cs_ninv (pc_allow pc) /\ cs_ninv (pc_deny pc) /\ cs_ninv (pc_pass pc).

Definition pc_repr (pc : pconns) (vf : proto -> Z -> verdict) : Prop :=
  forall pr n, valid_port n = true ->
    cs_denote (pc_allow pc) pr n = isA (vf pr n) /\
    cs_denote (pc_deny pc) pr n = isD (vf pr n) /\
    cs_denote (pc_pass pc) pr n = isP (vf pr n).

Definition pc_is (pc : pconns) (vf : proto -> Z -> verdict) : Prop :=
  cs_is (pc_allow pc) (fun pr n => isA (vf pr n)) /\
  cs_is (pc_deny pc) (fun pr n => isD (vf pr n)) /\
  cs_is (pc_pass pc) (fun pr n => isP (vf pr n)).

Lemma pc_is_ok_repr pc vf : pc_is pc vf -> pc_ok pc /\ pc_repr pc vf.
Proof.
  intros ([HA DA] & [HD DD] & [HP DP]). split; [split; [|split]; assumption|].
  intros pr n Hv. rewrite DA, DD, DP, Hv. auto.
Qed.

Lemma pc_is_ext {pc vf vg} :
  pc_is pc vf -> (forall pr n, valid_port n = true -> vf pr n = vg pr n) -> pc_is pc vg.
Proof.
  intros (HA & HD & HP) E.
  split; [apply (cs_has_ext HA) | split; [apply (cs_has_ext HD) | apply (cs_has_ext HP)]];
    intros pr n Hv; rewrite (E pr n Hv); reflexivity.
Qed.

Lemma pc_is_skip {pc vf} : pc_is pc vf -> pc_is pc (fun pr n => vcomp (vf pr n) VNone).
Proof. intros H. apply (pc_is_ext H). intros pr n _. symmetry. apply vcomp_none_r. Qed.

Lemma pc_new_is : pc_is pc_new (fun _ _ => VNone).
Proof. split; [|split]; exact (cs_is_make false). Qed.

Lemma pc_isempty_is {s vs} pr n :
  pc_is s vs -> pc_isempty s = true -> valid_port n = true -> vs pr n = VNone.
Proof.
  unfold pc_isempty. intros (HA & HD & HP) H Hv. apply andb_true_iff in H. destruct H as [H Hp].
  apply andb_true_iff in H. destruct H as [Ha Hd].
  pose proof (cs_has_empty pr n HA Ha Hv) as EA. pose proof (cs_has_empty pr n HD Hd Hv) as ED.
  pose proof (cs_has_empty pr n HP Hp Hv) as EP. cbn beta in *.
  destruct (vs pr n); try reflexivity; discriminate.
Qed.

Lemma pc_determines_all_is {pc vf} pr n :
  pc_is pc vf -> pc_determines_all pc = true -> valid_port n = true ->
  isA (vf pr n) || isD (vf pr n) = true.
Proof. intros (HA & HD & _) Hall Hv. exact (cs_has_all pr n (cs_is_union HA (cs_is_rule HD)) Hall Hv). Qed.

(* UpdateWithRuleConns: each component is either untouched or has the shape of cs_is_union_sub2 *)
Lemma pc_update_is {pc vf rc m a is_banp pc'} :
  pc_is pc vf -> cs_rule rc m -> pc_update pc rc a is_banp = Ok pc' ->
  a <> AUnknown /\
  pc_is pc' (fun pr n => vcomp (vf pr n) (if m pr n then verdict_of a else VNone)).
Proof.
  intros (HA & HD & HP) Hrc H. unfold pc_update in H.
  destruct a; [| |destruct is_banp; [discriminate H|]|discriminate H]; injection H as <-; (split; [discriminate|]).
  - split; [apply (cs_has_ext (cs_is_union_sub2 HA Hrc HD HP)) | split; [apply (cs_has_ext HD) | apply (cs_has_ext HP)]];
      intros pr n _; cbn beta; destruct (vf pr n), (m pr n); reflexivity.
  - split; [apply (cs_has_ext HA) | split; [apply (cs_has_ext (cs_is_union_sub2 HD Hrc HA HP)) | apply (cs_has_ext HP)]];
      intros pr n _; cbn beta; destruct (vf pr n), (m pr n); reflexivity.
  - split; [apply (cs_has_ext HA) | split; [apply (cs_has_ext HD) | apply (cs_has_ext (cs_is_union_sub2 HP Hrc HA HD))]];
      intros pr n _; cbn beta; destruct (vf pr n), (m pr n); reflexivity.
Qed.

Lemma admin_rules_conns_is rules other dst is_banp : forall pc pc' vf,
  peer_okb dst = true -> forallb admin_rule_okb rules = true -> pc_is pc vf ->
  admin_rules_conns rules other dst is_banp pc = Ok pc' ->
  pc_is pc' (fun pr n => vcomp (vf pr n) (s_rules_verdict rules other dst pr n)).
Proof.
  induction rules as [|r t IH]; intros pc pc' vf Hdst Hok Hpc H; cbn [admin_rules_conns] in H.
  - injection H as <-. exact (pc_is_skip Hpc).
  - cbn [forallb] in Hok. apply andb_true_iff in Hok. destruct Hok as [Hr Ht].
    destruct (ar_peers r) as [|ap0 aps] eqn:Hpeers; [discriminate|]. rewrite <- Hpeers in H.
    bind_inv H as sel Hsel. apply admin_peers_select_ok in Hsel.
    destruct sel; cbn [negb] in H.
    + bind_inv H as rc Hrc. bind_inv H as pc1 Hup.
      apply (admin_rule_conns_ok _ _ _ Hdst Hr) in Hrc.
      destruct (pc_update_is Hpc Hrc Hup) as [Hact Hpc1].
      apply (pc_is_ext (IH _ _ _ Hdst Ht Hpc1 H)). intros pr n _. cbn beta.
      rewrite vcomp_assoc. cbn [s_rules_verdict]. unfold s_admin_rule_matches. rewrite <- Hsel. cbn [andb].
      destruct (match ar_ports r with None => true | Some l => existsb (fun ap => s_admin_port_matches ap dst pr n) l end);
        [|reflexivity].
      destruct (ar_action r); try reflexivity. contradiction.
    + apply (pc_is_ext (IH _ _ _ Hdst Ht Hpc H)). intros pr n _.
      cbn [s_rules_verdict]. unfold s_admin_rule_matches. rewrite <- Hsel. reflexivity.
Qed.

Lemma pc_collect_anp_is {pc s vf vs} :
  pc_is pc vf -> pc_is s vs -> pc_is (pc_collect_anp pc s) (fun pr n => vcomp (vf pr n) (vs pr n)).
Proof.
  intros (HA & HD & HP) (SA & SD & SP). unfold pc_collect_anp.
  split; [apply (cs_has_ext (cs_is_union_sub2 HA (cs_is_rule SA) HD HP))
         | split; [apply (cs_has_ext (cs_is_union_sub2 HD (cs_is_rule SD) HA HP))
                  | apply (cs_has_ext (cs_is_union_sub2 HP (cs_is_rule SP) HD HA))]];
    intros pr n _; cbn beta; destruct (vf pr n), (vs pr n); reflexivity.
Qed.

(* the step common to the ANP walk and to the BANP evaluation *)
Lemma admin_single_is subj rules src dst (ingress : bool) is_banp sel single :
  peer_okb dst = true -> forallb admin_rule_okb rules = true ->
  admin_selects subj rules (if ingress then dst else src) = Ok sel ->
  (if sel then admin_rules_conns rules (if ingress then src else dst) dst is_banp pc_new else Ok pc_new) = Ok single ->
  pc_is single (s_admin_verdict subj rules src dst ingress).
Proof.
  intros Hdst Hok Hsel H. apply admin_selects_ok in Hsel. unfold s_admin_verdict. rewrite <- Hsel. destruct sel.
  - exact (admin_rules_conns_is _ _ _ _ _ _ _ Hdst Hok pc_new_is H).
  - injection H as <-. exact pc_new_is.
Qed.

Lemma anps_conns_is anps src dst ingress : forall pc pc' vf,
  peer_okb dst = true -> forallb anp_okb anps = true -> pc_is pc vf ->
  anps_conns anps src dst ingress pc = Ok pc' ->
  pc_is pc' (fun pr n => vcomp (vf pr n) (s_anps_verdict anps src dst ingress pr n)).
Proof.
  induction anps as [|a t IH]; intros pc pc' vf Hdst Hok Hpc H.
  - injection H as <-. exact (pc_is_skip Hpc).
  - cbn [forallb] in Hok. apply andb_true_iff in Hok. destruct Hok as [Ha Ht].
    cbn [anps_conns] in H. bind_inv H as sel Hsel. bind_inv H as single Hs.
    apply (admin_single_is _ _ _ _ _ _ _ _ Hdst (forallb_dir _ ingress _ _ Ha) Hsel) in Hs.
    set (vs := s_admin_verdict (a_subject a) (if ingress then a_in a else a_eg a) src dst ingress) in *.
    assert (Hstep : pc_is (if pc_isempty single then pc else pc_collect_anp pc single)
                          (fun pr n => vcomp (vf pr n) (vs pr n))).
    { destruct (pc_isempty single) eqn:He; [|exact (pc_collect_anp_is Hpc Hs)].
      apply (pc_is_ext (pc_is_skip Hpc)). intros pr n Hv. rewrite (pc_isempty_is pr n Hs He Hv). reflexivity. }
    apply (pc_is_ext (IH _ _ _ Hdst Ht Hstep H)). intros pr n _.
    rewrite s_anps_verdict_cons. exact (vcomp_assoc _ _ _).
Qed.

Lemma default_conns_is w src dst ingress dflt :
  peer_okb dst = true -> match w_banp w with None => true | Some b => banp_okb b end = true ->
  default_conns w src dst ingress = Ok dflt ->
  cs_is (pc_deny dflt) (fun pr n => negb (s_banp_allows w src dst ingress pr n)).
Proof.
  intros Hdst Hok H. unfold default_conns in H.
  destruct (w_banp w) as [b|] eqn:Hb.
  - bind_inv H as sel Hsel. bind_inv H as res Hres.
    apply (admin_single_is _ _ _ _ _ _ _ _ Hdst (forallb_dir _ ingress _ _ Hok) Hsel) in Hres.
    destruct Hres as (_ & HD & _).
    assert (E : pc_deny dflt = pc_deny res) by (injection H as <-; destruct (pc_isempty res); reflexivity).
    rewrite E. apply (cs_has_ext HD). intros pr n _. rewrite s_banp_allows_eq, Hb.
    destruct (s_admin_verdict _ _ _ _ _ _ _); reflexivity.
  - injection H as <-. apply (cs_has_ext (cs_is_make false)). intros pr n _.
    rewrite s_banp_allows_eq, Hb. reflexivity.
Qed.

Theorem xgress_conns_ok w src dst ingress c :
  peer_okb dst = true -> world_okb w = true ->
  xgress_conns w src dst ingress = Ok c ->
  cs_ninv c /\ forall pr n, cs_denote c pr n = valid_port n && s_dir_allows w src dst ingress pr n.
Proof.
  intros Hdst Hw H. destruct (world_ok_parts w Hw) as (Hnps & Hanps & Hbanp).
  unfold xgress_conns in H. bind_inv H as anpc Hanp.
  apply (anps_conns_is _ _ _ _ _ _ _ Hdst Hanps pc_new_is) in Hanp. cbn [vcomp] in Hanp.
  pose proof Hanp as (HA & HD & _). unfold s_dir_allows.
  set (va := s_anps_verdict (w_anps w) src dst ingress) in *.
  destruct (negb (pc_isempty anpc) && pc_determines_all anpc) eqn:Hshort.
  - injection H as <-. apply (cs_has_ext HA). intros pr n Hv.
    apply andb_true_iff in Hshort. destruct Hshort as [_ Hdet].
    pose proof (pc_determines_all_is pr n Hanp Hdet Hv) as Hu.
    destruct (va pr n); try reflexivity; discriminate Hu.
  - bind_inv H as npc Hnp. apply (np_layer_ok _ _ _ _ _ Hdst Hnps) in Hnp.
    destruct npc as [npa|].
    + destruct Hnp as [Hnpa Hnpd].
      assert (Hnp : cs_is npa (fun pr n => match s_np_layer w src dst ingress pr n with
                                           | Some b => b
                                           | None => s_banp_allows w src dst ingress pr n
                                           end)).
      { split; [exact Hnpa|]. intros pr n. destruct (Hnpd pr n) as (b & -> & E). exact E. }
      destruct (negb (pc_isempty anpc)) eqn:Hcap; injection H as <-.
      * apply (cs_has_ext (cs_is_union HA (cs_is_rule (cs_is_subtract Hnp HD)))). intros pr n _. cbn beta.
        destruct (va pr n); cbn [isA isD orb negb]; rewrite ?andb_true_r, ?andb_false_r; reflexivity.
      * apply (cs_has_ext Hnp). intros pr n Hv. apply negb_false_iff in Hcap.
        rewrite (pc_isempty_is pr n Hanp Hcap Hv). reflexivity.
    + bind_inv H as dflt Hdf. apply (default_conns_is _ _ _ _ _ Hdst Hbanp) in Hdf. injection H as <-.
      apply (cs_has_ext (cs_is_subtract (cs_is_make true)
                           (cs_is_union HD (cs_is_rule (cs_is_subtract Hdf HA))))).
      intros pr n _. cbn beta. rewrite (Hnp pr n).
      destruct (va pr n), (s_banp_allows w src dst ingress pr n); reflexivity.
Qed.

Theorem all_conns_ok w src dst c :
  peer_okb dst = true -> world_okb w = true ->
  all_conns w src dst = Ok c ->
  cs_ninv c /\
  forall pr n, cs_denote c pr n = valid_port n && (pod_to_itself src dst || s_allows w src dst pr n).
Proof.
  intros Hdst Hw H. unfold all_conns in H.
  destruct (pod_to_itself src dst); [injection H as <-; exact (cs_is_make true)|]. cbn [orb]. unfold s_allows.
  bind_inv H as eg Heg. apply (xgress_conns_ok _ _ _ _ _ Hdst Hw) in Heg.
  destruct (cs_isempty eg) eqn:Hemp.
  - injection H as <-. apply (cs_has_ext Heg). intros pr n Hv.
    rewrite (cs_has_empty pr n Heg Hemp Hv). reflexivity.
  - bind_inv H as ing Hing. apply (xgress_conns_ok _ _ _ _ _ Hdst Hw) in Hing. injection H as <-.
    exact (cs_is_inter Heg Hing).
Qed.

(* C01: without admin policies the report is the NetworkPolicy semantics *)
Lemma all_conns_np_only w src dst c :
  peer_okb dst = true -> world_okb w = true -> w_anps w = [] -> w_banp w = None ->
  all_conns w src dst = Ok c ->
  cs_ninv c /\
  forall pr n, cs_denote c pr n = valid_port n && (pod_to_itself src dst || s_np_only_allows w src dst pr n).
Proof.
  intros Hd Hw Ha Hb H. destruct (all_conns_ok _ _ _ _ Hd Hw H) as [Hc Hden].
  split; [exact Hc|]. intros pr n. rewrite Hden. unfold s_allows, s_np_only_allows, s_dir_allows, s_np_only_dir, s_banp_allows. rewrite Ha, Hb. reflexivity.
Qed.

Lemma named_port_err_documented pp dst :
  get_ports_range pp dst = Err ErrNamedPortIP ->
  (exists nm, pp_port pp = PName nm) /\ peer_is_ip dst = true.
Proof.
  unfold get_ports_range. destruct (pp_port pp) as [|a|nm]; try discriminate.
  destruct dst as [d nsl|b].
  - destruct (pod_named_port (p_ports d) nm) as [[q m]|]; [destruct (proto_eqb q (pp_proto pp))|]; discriminate.
  - intros _. split; [eexists; reflexivity | reflexivity].
Qed.
