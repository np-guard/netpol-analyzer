(* Two facts about sorting that the analysis relies on (C19, C02), proved for any correct comparison sort, so that
   nothing depends on Go's pdqsort.  A deterministic comparison-based procedure is a decision tree over element
   indices; if it sorts every injectively-keyed input then, run with the callback of sortAdminNetpolsByPriority
   (resources.go), which records an error and answers false on equal or out-of-range priorities, it records an error
   whenever two priorities are equal and, on two elements or more, whenever one is out of range.  And the sorted list
   of admin policies does not depend on their input order. *)
From Coq Require Import List ZArith Lia Bool Permutation Sorting.Sorted.
From NP Require Import World Build Basics SortGeneric.
Import ListNotations.
Open Scope Z_scope.

Section DT.
Variable n : nat.

Inductive dtree := Leaf (out : list nat) | Node (i j : nat) (tt tf : dtree).

(* the output of the tree under a comparison function, and the comparisons made *)
Fixpoint run (lt : nat -> nat -> bool) (t : dtree) : list nat * list (nat * nat) :=
  match t with
  | Leaf o => (o, [])
  | Node i j a b =>
      let r := run lt (if lt i j then a else b) in (fst r, (i, j) :: snd r)
  end.

Fixpoint wf (t : dtree) : Prop :=
  match t with
  | Leaf _ => True
  | Node i j a b => (i < n)%nat /\ (j < n)%nat /\ wf a /\ wf b
  end.

Definition inj_on (key : nat -> Z) := forall i j, (i < n)%nat -> (j < n)%nat -> key i = key j -> i = j.

Definition sorts (t : dtree) : Prop :=
  forall key, inj_on key ->
    let o := fst (run (fun i j => key i <? key j) t) in
    Permutation o (seq 0 n) /\ StronglySorted (fun a b => key a <= key b) o.

Lemma run_agree lt1 lt2 t :
  (forall a b, In (a, b) (snd (run lt1 t)) -> lt1 a b = lt2 a b) ->
  run lt2 t = run lt1 t.
Proof.
  induction t as [o | i j a IHa b IHb]; cbn [run]; intros H; [reflexivity|].
  assert (E : lt1 i j = lt2 i j) by (apply H; cbn; now left).
  rewrite <- E. cbn [snd] in H. destruct (lt1 i j).
  - rewrite IHa; [reflexivity|]. intros x y Hin. apply H. right. exact Hin.
  - rewrite IHb; [reflexivity|]. intros x y Hin. apply H. right. exact Hin.
Qed.

(* the Go callback: valid range lo..hi *)
Variables lo hi : Z.
Definition valid (p : Z) := (lo <=? p) && (p <=? hi).
Definition less (prio : nat -> Z) (i j : nat) : bool :=
  if prio i =? prio j then false
  else if negb (valid (prio i)) then false
  else if negb (valid (prio j)) then false
  else prio i <? prio j.
Definition flags (prio : nat -> Z) (ab : nat * nat) : bool :=
  (prio (fst ab) =? prio (snd ab)) || negb (valid (prio (fst ab))) || negb (valid (prio (snd ab))).
(* the callback recorded an error *)
Definition err (prio : nat -> Z) (t : dtree) : bool := existsb (flags prio) (snd (run (less prio) t)).

Lemma sorted_twice (R1 R2 : nat -> nat -> Prop) l i j :
  StronglySorted R1 l -> StronglySorted R2 l -> In i l -> In j l ->
  i = j \/ (R1 i j /\ R2 i j) \/ (R1 j i /\ R2 j i).
Proof.
  intros S1. induction S1 as [|a t _ IH F1]; intros S2 Hi Hj; [destruct Hi|].
  apply StronglySorted_inv in S2. destruct S2 as [S2 F2]. rewrite Forall_forall in F1, F2.
  destruct Hi as [<- | Hi], Hj as [<- | Hj].
  - left. reflexivity.
  - right. left. split; [apply F1 | apply F2]; exact Hj.
  - right. right. split; [apply F1 | apply F2]; exact Hi.
  - apply IH; assumption.
Qed.

Lemma comparisons_in_range t prio : wf t ->
  forall a b, In (a, b) (snd (run (less prio) t)) -> (a < n)%nat /\ (b < n)%nat.
Proof.
  induction t as [o | x y a IHa b IHb]; cbn; [tauto|].
  intros (Hx & Hy & Wa & Wb) p q [E | Hin].
  - injection E as <- <-. tauto.
  - destruct (less prio x y); auto.
Qed.

Lemma unflagged prio t a b :
  err prio t = false -> In (a, b) (snd (run (less prio) t)) ->
  prio a <> prio b /\ valid (prio a) = true /\ valid (prio b) = true /\
  less prio a b = (prio a <? prio b).
Proof.
  unfold err. intros He Hin.
  assert (F : flags prio (a, b) = false).
  { apply not_true_is_false. intros F. rewrite <- not_true_iff_false, existsb_exists in He. apply He. eauto. }
  unfold flags in F. cbn [fst snd] in F.
  apply orb_false_elim in F. destruct F as [F F3]. apply orb_false_elim in F. destruct F as [F1 F2].
  unfold less. rewrite F1, F2, F3.
  apply Z.eqb_neq in F1. apply negb_false_iff in F2, F3. auto.
Qed.

Lemma sorts_by_agreeing_key t prio key :
  sorts t -> err prio t = false -> inj_on key ->
  (forall a b, In (a, b) (snd (run (less prio) t)) -> (key a <? key b) = (prio a <? prio b)) ->
  let o := fst (run (less prio) t) in
  Permutation o (seq 0 n) /\ StronglySorted (fun a b => key a <= key b) o.
Proof.
  intros Hs He I A. rewrite <- (run_agree (less prio) (fun a b => key a <? key b) t); [apply Hs, I|].
  intros a b Hin. rewrite (A a b Hin). apply (unflagged prio t a b He Hin).
Qed.

(* priorities first, ties broken by [r] *)
Lemma lex_key t prio (r : nat -> Z) :
  wf t -> err prio t = false ->
  (forall k, (k < n)%nat -> 0 <= r k < Z.of_nat n) -> (forall a b, r a = r b -> a = b) ->
  let key k := prio k * Z.of_nat n + r k in
  inj_on key /\
  forall a b, In (a, b) (snd (run (less prio) t)) -> (key a <? key b) = (prio a <? prio b).
Proof.
  intros Hwf He Hr Hinj key. split.
  - intros a b Ha Hb E. apply Hinj. pose proof (Hr a Ha). pose proof (Hr b Hb).
    unfold key in E. assert (prio a = prio b) by nia. nia.
  - intros a b Hin. destruct (comparisons_in_range t prio Hwf a b Hin) as [Ha Hb].
    destruct (unflagged prio t a b He Hin) as (Hne & _). pose proof (Hr a Ha). pose proof (Hr b Hb).
    unfold key. apply eq_true_iff_eq. rewrite !Z.ltb_lt. nia.
Qed.

(* C19: were prio i = prio j, breaking ties by the index and by the reversed index would give two keys that the one
   output is sorted by, and that put i and j opposite ways round *)
Theorem no_err_no_dup t prio :
  sorts t -> wf t -> err prio t = false ->
  forall i j, (i < n)%nat -> (j < n)%nat -> i <> j -> prio i <> prio j.
Proof.
  intros Hs Hwf He i j Hi Hj Hne Heq.
  destruct (lex_key t prio (fun k => Z.of_nat k) Hwf He) as [I1 A1]; [lia | lia |].
  destruct (lex_key t prio (fun k => Z.of_nat n - 1 - Z.of_nat k) Hwf He) as [I2 A2]; [lia | lia |].
  destruct (sorts_by_agreeing_key t prio _ Hs He I1 A1) as [P S1].
  destruct (sorts_by_agreeing_key t prio _ Hs He I2 A2) as [_ S2].
  assert (In i (fst (run (less prio) t)) /\ In j (fst (run (less prio) t))) as [Ii Ij]
    by (split; apply (Permutation_in _ (Permutation_sym P)), in_seq; lia).
  destruct (sorted_twice _ _ _ i j S1 S2 Ii Ij) as [E | H]; [exact (Hne E)|].
  cbn beta in H. rewrite Heq in H. lia.
Qed.

Lemma err_agree t prio prio' :
  (forall a b, In (a, b) (snd (run (less prio) t)) -> prio' a = prio a /\ prio' b = prio b) ->
  err prio' t = err prio t.
Proof.
  intros H. unfold err.
  rewrite (run_agree (less prio) (less prio') t).
  - apply existsb_ext_in. intros [a b] Hin. destruct (H a b Hin) as [Ea Eb].
    unfold flags. cbn [fst snd]. rewrite Ea, Eb. reflexivity.
  - intros a b Hin. destruct (H a b Hin) as [Ea Eb]. unfold less. rewrite Ea, Eb. reflexivity.
Qed.

(* C19: an index i out of range is never compared, so it might as well have the priority of another index j, which
   no_err_no_dup excludes *)
Theorem no_err_all_valid t prio :
  sorts t -> wf t -> err prio t = false -> (2 <= n)%nat ->
  forall i, (i < n)%nat -> valid (prio i) = true.
Proof.
  intros Hs Hwf He Hn i Hi. destruct (valid (prio i)) eqn:Hv; [reflexivity|]. exfalso.
  set (j := if Nat.eqb i 0 then 1%nat else 0%nat).
  assert (Hj : (j < n)%nat) by (unfold j; destruct (Nat.eqb i 0); lia).
  assert (Hne : i <> j) by (unfold j; destruct (Nat.eqb_spec i 0); lia).
  set (prio' := fun k => if Nat.eqb k i then prio j else prio k).
  assert (He' : err prio' t = false).
  { rewrite <- He. apply err_agree. intros a b Hin.
    destruct (unflagged prio t a b He Hin) as (_ & Va & Vb & _). unfold prio'.
    destruct (Nat.eqb_spec a i); [congruence|]. destruct (Nat.eqb_spec b i); [congruence|]. split; reflexivity. }
  apply (no_err_no_dup t prio' Hs Hwf He' i j Hi Hj Hne).
  unfold prio'. rewrite Nat.eqb_refl. destruct (Nat.eqb_spec j i); [congruence | reflexivity].
Qed.

End DT.

Lemma has_dup_prio_spec l : has_dup_prio l = false <-> NoDup (map a_prio l).
Proof.
  induction l as [|a t IH]; cbn [has_dup_prio map]; [split; [constructor | reflexivity]|].
  rewrite orb_false_iff, IH. split.
  - intros [He Hn]. constructor; [|exact Hn]. intros Hin. apply in_map_iff in Hin. destruct Hin as (b & Hb & Hin).
    rewrite <- not_true_iff_false, existsb_exists in He. apply He. exists b. split; [exact Hin | lia].
  - intros Hnd. inversion Hnd as [|x xs Hnin Hnd']; subst. split; [|exact Hnd'].
    rewrite <- not_true_iff_false, existsb_exists. intros (b & Hb & Heq). apply Hnin.
    apply in_map_iff. exists b. split; [lia | exact Hb].
Qed.

Lemma has_dup_prio_perm l1 l2 : Permutation l1 l2 -> has_dup_prio l1 = has_dup_prio l2.
Proof.
  assert (H : forall l l', Permutation l l' -> has_dup_prio l = false -> has_dup_prio l' = false).
  { intros l l' Hp. rewrite !has_dup_prio_spec. apply Permutation_NoDup, Permutation_map, Hp. }
  intros Hp. destruct (has_dup_prio l1) eqn:H1, (has_dup_prio l2) eqn:H2; try reflexivity.
  - rewrite (H l2 l1 (Permutation_sym Hp) H2) in H1. discriminate H1.
  - rewrite (H l1 l2 Hp H1) in H2. discriminate H2.
Qed.

(* sort_by_prio is SortGeneric's insertion sort driven by the strict comparison of priorities, so its result is sorted
   by their non-strict order *)
Theorem sort_by_prio_perm_invariant l1 l2 :
  Permutation l1 l2 -> NoDup (map a_prio l1) -> sort_by_prio l1 = sort_by_prio l2.
Proof.
  intros Hp Hnd.
  apply (isort_unique anp (fun a b => a_prio a <? a_prio b) (fun a b => a_prio a <= a_prio b)); [| | | |exact Hp].
  - intros a b c. apply Z.le_trans.
  - intros a b H. apply Z.lt_le_incl, Z.ltb_lt, H.
  - intros a b H. apply Z.ltb_ge, H.
  - intros a b Ha Hb H1 H2. apply (NoDup_map_inj a_prio l1); try assumption. apply Z.le_antisymm; assumption.
Qed.

Lemma sort_anps_eq l :
  sort_anps l =
  if has_dup_prio l then Err (ErrConflict cf_same_priority)
  else if forallb (fun a => valid_priority (a_prio a)) l then Ok (sort_by_prio l)
       else Err (ErrConflict cf_priority_range).
Proof.
  destruct l as [|a [|b t]]; [reflexivity | cbn; destruct (valid_priority (a_prio a)); reflexivity|].
  unfold sort_anps. destruct (has_dup_prio (a :: b :: t)); [reflexivity|].
  destruct (forallb _ (a :: b :: t)); reflexivity.
Qed.

Theorem sort_anps_perm l1 l2 : Permutation l1 l2 -> sort_anps l1 = sort_anps l2.
Proof.
  intros Hp. rewrite !sort_anps_eq, <- (has_dup_prio_perm _ _ Hp), <- (forallb_perm _ _ _ Hp).
  destruct (has_dup_prio l1) eqn:Hd; [reflexivity|]. destruct (forallb _ l1); [|reflexivity].
  f_equal. apply sort_by_prio_perm_invariant; [exact Hp | apply has_dup_prio_spec, Hd].
Qed.

(* C02 *)
Theorem sort_anps_perm_invariant l1 l2 :
  Permutation l1 l2 ->
  is_ok (sort_anps l1) = is_ok (sort_anps l2) /\
  forall s1 s2, sort_anps l1 = Ok s1 -> sort_anps l2 = Ok s2 -> s1 = s2.
Proof. intros Hp. rewrite (sort_anps_perm _ _ Hp). split; [reflexivity | congruence]. Qed.
