(* What completeness (C07) says of a named port of an egress rule: the name is stored in the entry that covers the rule,
   or the entry holds the port number that the other pod gives it. *)
From Coq Require Import List ZArith Bool String.
From NP Require Import ConnSet World Spec EvalProofs Build Exposure ExposureProofs.
Import ListNotations.
Open Scope list_scope.
Open Scope Z_scope.

Definition name_covered (c : connset) (q : proto) (nm : string) (n : Z) : bool :=
  cs_denote c q n || has_name c q nm.
