(* Documents the analysis does not use, and malformed ones, never change the computed connections; they are reported
   as severe; stop-on-error never yields a partial report; a fatal error yields no result (C13, control flow). *)
From Coq Require Import List Bool.
From NP Require Import World Connlist Pipeline Basics.
Import ListNotations.
Close Scope Z_scope.
Open Scope nat_scope.

Definition is_relevant (d : doc) : bool := match d with DRelevant _ => true | _ => false end.

Lemma relevant_objs_filter docs : relevant_objs docs = relevant_objs (filter is_relevant docs).
Proof.
  unfold relevant_objs. induction docs as [|d t IH]; [reflexivity|].
  destruct d; cbn [filter is_relevant flat_map]; rewrite IH; reflexivity.
Qed.

Definition entries_of (r : presult) : option (list rentry) :=
  match r with POk es _ => Some es | PErr _ => None end.

Theorem junk_irrelevant_objs focus docs1 docs2 :
  relevant_objs docs1 = relevant_objs docs2 ->
  entries_of (list_pipeline false focus docs1) = entries_of (list_pipeline false focus docs2).
Proof. intros H. unfold list_pipeline. cbn [andb]. rewrite H. destruct (list_objs _ focus); reflexivity. Qed.

Definition errors_of (r : presult) : list severity := match r with POk _ e => e | PErr e => e end.

(* every malformed document or unreadable file appears as a severe entry of Errors() *)
Definition malformed_count (docs : list doc) : nat :=
  List.length (filter (fun d => match d with DBroken | DSchemaBad => true | _ => false end) docs).
Definition severe_count (l : list severity) : nat := List.length (filter (sev_eqb Severe) l).

Lemma severe_count_app a b : severe_count (a ++ b) = severe_count a + severe_count b.
Proof. unfold severe_count. rewrite filter_app, app_length. reflexivity. Qed.

Lemma pre_errors_severe docs : malformed_count docs <= severe_count (pre_errors docs).
Proof.
  unfold pre_errors. rewrite severe_count_app.
  assert (H : severe_count (flat_map (fun d => match d with DBroken | DSchemaBad => [Severe] | _ => [] end) docs) = malformed_count docs).
  { unfold severe_count, malformed_count. induction docs as [|d t IH]; [reflexivity|]. destruct d; cbn; rewrite ?IH; reflexivity. }
  rewrite H. apply PeanoNat.Nat.le_add_r.
Qed.

Theorem malformed_reported_severe stop focus docs :
  malformed_count docs <= severe_count (errors_of (list_pipeline stop focus docs)).
Proof.
  unfold list_pipeline. pose proof (pre_errors_severe docs) as H.
  destruct (stop && has_broken docs); [exact H|].
  destruct (stop && existsb (sev_eqb Severe) (pre_errors docs)); [exact H|].
  destruct (list_objs _ focus); cbn [errors_of]; [exact H|].
  rewrite severe_count_app. apply (PeanoNat.Nat.le_trans _ _ _ H), PeanoNat.Nat.le_add_r.
Qed.

(* C13 *)
Theorem stop_on_severe_no_partial focus docs :
  0 < malformed_count docs ->
  match list_pipeline true focus docs with POk es _ => es = [] | PErr _ => True end.
Proof.
  intros Hm. unfold list_pipeline. cbn [andb].
  destruct (has_broken docs); [exact I|].
  rewrite (existsb_filter_nonempty (sev_eqb Severe) (pre_errors docs)); [reflexivity|].
  exact (PeanoNat.Nat.lt_le_trans _ _ _ Hm (pre_errors_severe docs)).
Qed.

(* C13; the second case: stop-on-error had already returned the empty result *)
Theorem fatal_no_result stop focus docs e :
  list_objs (relevant_objs docs) focus = Err e ->
  entries_of (list_pipeline stop focus docs) = None \/ entries_of (list_pipeline stop focus docs) = Some [].
Proof.
  intros H. unfold list_pipeline.
  destruct (stop && has_broken docs); [left; reflexivity|].
  destruct (stop && existsb (sev_eqb Severe) (pre_errors docs)); [right; reflexivity|].
  rewrite H. left; reflexivity.
Qed.
