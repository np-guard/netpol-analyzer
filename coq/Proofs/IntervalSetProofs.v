(* What every operation of Model/IntervalSet.v does to membership ([imem]), that it keeps the canonical form, and that
   a canonical list is determined by its members. *)
From Coq Require Import List ZArith Bool Lia.
From NP Require Import IntervalSet.
Import ListNotations.
Open Scope Z_scope.

Lemma in_ivl_iff x l h : in_ivl x (l, h) = true <-> l <= x <= h.
Proof. unfold in_ivl. cbn [fst snd]. rewrite andb_true_iff, !Z.leb_le. reflexivity. Qed.

Lemma in_ivl_out x l h : x < l \/ h < x -> in_ivl x (l, h) = false.
Proof.
  intros H. apply andb_false_iff. cbn [fst snd]. rewrite !Z.leb_gt. exact H.
Qed.

Lemma in_ivl_empty x l h : h < l -> in_ivl x (l, h) = false.
Proof. intros H. apply in_ivl_out. lia. Qed.

Lemma imem_existsb s x : imem x s = existsb (in_ivl x) s.
Proof. induction s as [|v t IH]; cbn [imem existsb]; [|rewrite IH]; reflexivity. Qed.

Lemma imem_app x s1 s2 : imem x (s1 ++ s2) = imem x s1 || imem x s2.
Proof. rewrite !imem_existsb. apply existsb_app. Qed.

Lemma lb_canon_weaken b b' s : lb_canon b s -> b' <= b -> lb_canon b' s.
Proof.
  destruct s as [|[l h] t]; cbn [lb_canon]; [trivial|].
  intros (H1 & H2 & H3) Hb. split; [lia|]. split; assumption.
Qed.

Lemma lb_canonb_spec b s : lb_canonb b s = true <-> lb_canon b s.
Proof.
  revert b. induction s as [|[l h] t IH]; intros b; cbn [lb_canonb lb_canon].
  - split; trivial.
  - split.
    + intros [[Hb Hlh]%andb_true_iff Ht]%andb_true_iff.
      split; [apply Z.leb_le, Hb|]. split; [apply Z.leb_le, Hlh|apply IH, Ht].
    + intros (Hb & Hlh & Ht). apply Z.leb_le in Hb, Hlh. rewrite Hb, Hlh. apply IH, Ht.
Qed.

Lemma canonb_spec s : canonb s = true <-> canon s.
Proof.
  destruct s as [|[l h] t]; unfold canonb, canon; [split; trivial|apply lb_canonb_spec].
Qed.

Lemma lb_canon_canon b s : lb_canon b s -> canon s.
Proof.
  destruct s as [|[l h] t]; [trivial|]. intros (_ & H). split; [apply Z.le_refl|exact H].
Qed.

Lemma canon_lb s : canon s <-> exists b, lb_canon b s.
Proof.
  split; [|intros [b H]; exact (lb_canon_canon b s H)].
  destruct s as [|[l h] t]; intros H; [exists 0|exists l]; exact H.
Qed.

Lemma canon_tail v s : canon (v :: s) -> canon s.
Proof.
  destruct v as [l h]. intros (_ & _ & H). apply canon_lb. exists (h + 2). exact H.
Qed.

Lemma ifull_canon lo hi : lo <= hi -> canon (ifull lo hi).
Proof. intros Hle. split; [apply Z.le_refl|]. split; [exact Hle|exact I]. Qed.

Lemma ifull_mem lo hi x : imem x (ifull lo hi) = (lo <=? x) && (x <=? hi).
Proof. apply orb_false_r. Qed.

Lemma imem_lb b s x : lb_canon b s -> imem x s = true -> b <= x.
Proof.
  revert b. induction s as [|[l h] t IH]; cbn [imem lb_canon]; intros b Hc Hm.
  - discriminate Hm.
  - destruct Hc as (H1 & H2 & H3). apply orb_true_iff in Hm. destruct Hm as [Hm|Hm].
    + apply in_ivl_iff in Hm. lia.
    + specialize (IH _ H3 Hm). lia.
Qed.

Lemma imem_below b s x : lb_canon b s -> x < b -> imem x s = false.
Proof.
  intros Hc Hx. destruct (imem x s) eqn:E; [|reflexivity].
  apply (imem_lb _ _ _ Hc) in E. lia.
Qed.

Lemma imem_first b l h t : lb_canon b (((l, h) : ivl) :: t) -> imem l (((l, h) : ivl) :: t) = true.
Proof.
  intros (_ & Hlh & _). cbn [imem]. rewrite (proj2 (in_ivl_iff l l h)); [reflexivity|lia].
Qed.

Lemma imem_head b l h t x :
  lb_canon b (((l, h) : ivl) :: t) -> x < h + 2 -> imem x (((l, h) : ivl) :: t) = in_ivl x (l, h).
Proof.
  intros (_ & _ & Ht) Hx. cbn [imem]. rewrite (imem_below _ _ _ Ht Hx). apply orb_false_r.
Qed.

Lemma imem_tail b l h t x :
  lb_canon b (((l, h) : ivl) :: t) -> imem x t = (h + 2 <=? x) && imem x (((l, h) : ivl) :: t).
Proof.
  intros (_ & _ & Ht). cbn [imem]. destruct (Z.leb_spec (h + 2) x) as [Hx|Hx]; cbn [andb].
  - rewrite in_ivl_out by lia. reflexivity.
  - exact (imem_below _ _ _ Ht Hx).
Qed.

(* the last branch of [iadd]: overlapping or adjacent intervals become one *)
Lemma in_ivl_merge x l h l' h' :
  l' <= h + 1 -> l <= h' + 1 ->
  in_ivl x (Z.min l l', Z.max h h') = in_ivl x (l, h) || in_ivl x (l', h').
Proof.
  intros. apply eq_true_iff_eq. rewrite orb_true_iff, !in_ivl_iff. lia.
Qed.

Lemma iadd_mem l h s x : imem x (iadd l h s) = in_ivl x (l, h) || imem x s.
Proof.
  revert l h. induction s as [|[l' h'] t IH]; intros l h; cbn [iadd]; [reflexivity|].
  destruct (Z.ltb_spec (h + 1) l') as [Hlt|Hge]; [reflexivity|].
  destruct (Z.ltb_spec (h' + 1) l) as [Hlt2|Hge2]; cbn [imem]; rewrite IH.
  - rewrite !orb_assoc, (orb_comm (in_ivl x (l', h'))). reflexivity.
  - rewrite in_ivl_merge by assumption. symmetry. apply orb_assoc.
Qed.

Lemma iadd_canon b b' l h s :
  lb_canon b s -> l <= h -> b' <= l -> b' <= b -> lb_canon b' (iadd l h s).
Proof.
  revert b b' l h. induction s as [|[l' h'] t IH]; intros b b' l h Hc Hlh Hbl Hbb; cbn [iadd].
  - split; [exact Hbl|]. split; [exact Hlh|exact I].
  - destruct Hc as (H1 & H2 & H3).
    destruct (Z.ltb_spec (h + 1) l') as [Hlt|Hge].
    + split; [exact Hbl|]. split; [exact Hlh|]. split; [lia|]. split; assumption.
    + destruct (Z.ltb_spec (h' + 1) l) as [Hlt2|Hge2].
      * split; [lia|]. split; [exact H2|]. apply (IH (h' + 2)); [exact H3|lia..].
      * apply (IH (h' + 2)); [exact H3|lia..].
Qed.

(* the last branch of [ihole]: what a hole (l, h) leaves of an interval (l', h') that it meets *)
Lemma in_ivl_cut x l h l' h' :
  l' <= h -> l <= h' ->
  imem x ((if l' <? l then [(l', l - 1)] else []) ++ (if h <? h' then [(h + 1, h')] else []))
  = in_ivl x (l', h') && negb (in_ivl x (l, h)).
Proof.
  intros Hl Hh.
  assert (Hpiece : forall (b : bool) lo hi, (b = true <-> lo <= hi) ->
                     imem x (if b then [(lo, hi)] else []) = in_ivl x (lo, hi)).
  { intros [|] lo hi Hb; cbn [imem]; [apply orb_false_r|]. symmetry. apply in_ivl_empty.
    destruct (Z_lt_le_dec hi lo) as [H|H]; [exact H|discriminate (proj2 Hb H)]. }
  rewrite imem_app, !Hpiece by (rewrite Z.ltb_lt; lia).
  apply eq_true_iff_eq.
  rewrite orb_true_iff, andb_true_iff, negb_true_iff, <- not_true_iff_false, !in_ivl_iff. lia.
Qed.

Lemma ihole_mem b l h s x :
  lb_canon b s -> imem x (ihole l h s) = imem x s && negb (in_ivl x (l, h)).
Proof.
  revert b. induction s as [|[l' h'] t IH]; intros b Hc; cbn [ihole]; [reflexivity|].
  pose proof Hc as (_ & _ & Ht). specialize (IH _ Ht).
  destruct (Z.ltb_spec h l') as [Hlt|Hge].
  - (* the hole ends before the first interval: no member lies in it *)
    clear IH. destruct (imem x _) eqn:E; [|reflexivity].
    apply (imem_lb l') in E; [|exact (lb_canon_canon _ _ Hc)].
    rewrite in_ivl_out by lia. reflexivity.
  - destruct (Z.ltb_spec h' l) as [Hlt2|Hge2]; cbn [imem].
    + (* the hole starts after the first interval, which stays *)
      rewrite IH. destruct (in_ivl x (l', h')) eqn:E; [|reflexivity].
      apply in_ivl_iff in E. rewrite in_ivl_out by lia. reflexivity.
    + rewrite app_assoc, imem_app, in_ivl_cut, IH by assumption. symmetry. apply andb_orb_distrib_l.
Qed.

Lemma ihole_canon b l h s : lb_canon b s -> l <= h -> lb_canon b (ihole l h s).
Proof.
  intros Hc Hlh. revert b Hc. induction s as [|[l' h'] t IH]; intros b Hc; cbn [ihole]; [exact I|].
  pose proof Hc as (H1 & H2 & H3). specialize (IH _ H3).
  destruct (Z.ltb_spec h l') as [Hlt|Hge]; [exact Hc|].
  destruct (Z.ltb_spec h' l) as [Hlt2|Hge2].
  - split; [exact H1|]. split; [exact H2|exact IH].
  - (* what is left of [l',h'], then the tail, whose bound h'+2 is above either piece *)
    destruct (Z.ltb_spec l' l) as [Hl|Hl]; destruct (Z.ltb_spec h h') as [Hh|Hh]; cbn [app lb_canon].
    + split; [exact H1|]. split; [lia|]. split; [lia|]. split; [lia|exact IH].
    + split; [exact H1|]. split; [lia|]. apply (lb_canon_weaken (h' + 2)); [exact IH|lia].
    + split; [lia|]. split; [lia|exact IH].
    + apply (lb_canon_weaken (h' + 2)); [exact IH|lia].
Qed.

Lemma iadd_ivl_mem v s x : imem x (iadd_ivl v s) = in_ivl x v || imem x s.
Proof.
  destruct v as [l h]. unfold iadd_ivl. cbn [fst snd].
  destruct (Z.leb_spec l h) as [Hle|Hgt]; [exact (iadd_mem l h s x)|].
  rewrite in_ivl_empty by exact Hgt. reflexivity.
Qed.

Lemma iadd_ivl_canon v s : canon s -> canon (iadd_ivl v s).
Proof.
  intros Hc. destruct v as [l h]. unfold iadd_ivl. cbn [fst snd].
  destruct (Z.leb_spec l h) as [Hle|Hgt]; [|exact Hc].
  apply canon_lb in Hc. destruct Hc as [b Hc]. apply canon_lb. exists (Z.min b l).
  apply (iadd_canon b); [exact Hc|lia..].
Qed.

Lemma ihole_ivl_mem v s x : canon s -> imem x (ihole_ivl s v) = imem x s && negb (in_ivl x v).
Proof.
  intros [b Hc]%canon_lb. destruct v as [l h]. unfold ihole_ivl. cbn [fst snd].
  destruct (Z.leb_spec l h) as [Hle|Hgt]; [exact (ihole_mem b l h s x Hc)|].
  rewrite in_ivl_empty by exact Hgt. symmetry. apply andb_true_r.
Qed.

Lemma ihole_ivl_canon v s : canon s -> canon (ihole_ivl s v).
Proof.
  intros Hc. unfold ihole_ivl. destruct (Z.leb_spec (fst v) (snd v)) as [Hle|Hgt]; [|exact Hc].
  apply canon_lb in Hc. destruct Hc as [b Hc]. apply canon_lb. exists b. apply ihole_canon; assumption.
Qed.

(* the second argument may be any list of intervals (empty ones, unsorted): only the first must be canonical *)
Lemma iunion_canon a b : canon a -> canon (iunion a b).
Proof.
  intros Hc. induction b as [|v b IH]; [exact Hc|]. apply iadd_ivl_canon with (s := iunion a b), IH.
Qed.

Lemma iunion_mem a b x : imem x (iunion a b) = imem x a || imem x b.
Proof.
  induction b as [|v b IH]; cbn [imem].
  - symmetry. apply orb_false_r.
  - change (iunion a (v :: b)) with (iadd_ivl v (iunion a b)).
    rewrite iadd_ivl_mem, IH.
    rewrite !orb_assoc, (orb_comm (in_ivl x v)). reflexivity.
Qed.

Lemma isub_canon a b : canon a -> canon (isub a b).
Proof.
  revert a. induction b as [|v b IH]; intros a Hc; [exact Hc|].
  apply (IH (ihole_ivl a v)), ihole_ivl_canon, Hc.
Qed.

Lemma isub_mem a b x : canon a -> imem x (isub a b) = imem x a && negb (imem x b).
Proof.
  revert a. induction b as [|v b IH]; intros a Hc; cbn [imem].
  - symmetry. apply andb_true_r.
  - change (isub a (v :: b)) with (isub (ihole_ivl a v) b).
    rewrite IH by (apply ihole_ivl_canon, Hc). rewrite ihole_ivl_mem by exact Hc.
    rewrite negb_orb. symmetry. apply andb_assoc.
Qed.

Lemma iinter_mem a b x : canon a -> imem x (iinter a b) = imem x a && imem x b.
Proof.
  intros Hc. unfold iinter. rewrite !isub_mem by exact Hc.
  destruct (imem x a), (imem x b); reflexivity.
Qed.

Lemma iinter_canon a b : canon a -> canon (iinter a b).
Proof. apply isub_canon. Qed.

Lemma icanon_of_canon l : canon (icanon_of l).
Proof. exact (iunion_canon [] l I). Qed.

Lemma icanon_of_mem l x : imem x (icanon_of l) = existsb (in_ivl x) l.
Proof. rewrite <- imem_existsb. exact (iunion_mem [] l x). Qed.

Lemma iempty_false_iff s : negb (iempty s) = true <-> s <> [].
Proof. destruct s; cbn [iempty negb]; split; (discriminate || congruence). Qed.

Lemma iempty_spec s : canon s -> (iempty s = true <-> forall x, imem x s = false).
Proof.
  intros Hc. destruct s as [|[l h] t]; cbn [iempty].
  - split; reflexivity.
  - split; [discriminate|]. intros Hall. rewrite <- (Hall l). exact (imem_first _ _ _ _ Hc).
Qed.

Lemma canon_inhabited s : canon s -> s <> [] -> exists x, imem x s = true.
Proof.
  destruct s as [|[l h] t]; [contradiction|]. intros Hc _. exists l. exact (imem_first _ _ _ _ Hc).
Qed.

Lemma imem_nonempty s x : imem x s = true -> s <> [].
Proof. intros H ->. discriminate H. Qed.

Lemma isubset_spec a b :
  canon a -> (isubset a b = true <-> forall x, imem x a = true -> imem x b = true).
Proof.
  intros Hc. unfold isubset. rewrite iempty_spec by (apply isub_canon, Hc).
  split; intros Hall x.
  - intros Hx. specialize (Hall x). rewrite isub_mem, Hx in Hall by exact Hc.
    destruct (imem x b); [reflexivity|discriminate Hall].
  - rewrite isub_mem by exact Hc. destruct (imem x a) eqn:Hx; [|reflexivity].
    rewrite (Hall x Hx). reflexivity.
Qed.

Lemma imem_single y a b : imem y [(a, b)] = true <-> a <= y <= b.
Proof. change [(a, b)] with (ifull a b). rewrite ifull_mem, andb_true_iff, !Z.leb_le. reflexivity. Qed.

Lemma isubset_const a b x s :
  a <= x <= b -> (forall y, a <= y <= b -> imem y s = imem x s) -> isubset [(a, b)] s = imem x s.
Proof.
  intros Hx Hconst. apply eq_true_iff_eq.
  rewrite isubset_spec by (apply (ifull_canon a b); lia). split.
  - intros H. apply H, imem_single, Hx.
  - intros H y Hy. rewrite Hconst; [exact H|apply imem_single, Hy].
Qed.

Lemma isubset_point a s : isubset [(a, a)] s = imem a s.
Proof. apply isubset_const; [lia|]. intros y Hy. f_equal. lia. Qed.

Lemma withinb_spec lo hi s :
  canon s -> (withinb lo hi s = true <-> forall x, imem x s = true -> lo <= x <= hi).
Proof.
  induction s as [|[l h] t IH]; intros Hc; cbn [withinb].
  - split; [discriminate|reflexivity].
  - specialize (IH (canon_tail _ _ Hc)). cbn [imem]. split.
    + intros [[Hl Hh]%andb_true_iff Ht]%andb_true_iff x [Hx|Hx]%orb_true_iff.
      * apply in_ivl_iff in Hx. apply Z.leb_le in Hl, Hh. lia.
      * exact (proj1 IH Ht x Hx).
    + intros Hall. assert (Hlh : l <= h) by apply Hc.
      assert (Hin : forall x, l <= x <= h -> lo <= x <= hi).
      { intros x Hx. apply Hall. rewrite (proj2 (in_ivl_iff x l h) Hx). reflexivity. }
      rewrite (proj2 (Z.leb_le lo l)), (proj2 (Z.leb_le h hi)) by (apply Hin; lia).
      apply IH. intros x Hx. apply Hall. rewrite Hx. apply orb_true_r.
Qed.

(* l is a member of the other list; h+1 is not a member of (l,h)::t *)
Lemma canon_head_le ba bb l h t l' h' t' :
  lb_canon ba (((l, h) : ivl) :: t) -> lb_canon bb (((l', h') : ivl) :: t') ->
  (forall x, imem x (((l, h) : ivl) :: t) = imem x (((l', h') : ivl) :: t')) ->
  l' <= l /\ (l = l' -> h' <= h).
Proof.
  intros Ha Hb Hext. split.
  - apply (imem_lb l' ((l', h') :: t')); [exact (lb_canon_canon _ _ Hb)|].
    rewrite <- Hext. exact (imem_first _ _ _ _ Ha).
  - intros <-. destruct (Z_le_gt_dec h' h) as [Hle|Hgt]; [exact Hle|exfalso].
    specialize (Hext (h + 1)). rewrite (imem_head _ _ _ _ _ Ha) in Hext by lia.
    rewrite in_ivl_out in Hext by lia. cbn [imem] in Hext.
    rewrite (proj2 (in_ivl_iff (h + 1) l h')) in Hext by (destruct Ha as (_ & Hlh & _); lia).
    discriminate Hext.
Qed.

Lemma canon_ext_lb a : forall b ba bb,
  lb_canon ba a -> lb_canon bb b -> (forall x, imem x a = imem x b) -> a = b.
Proof.
  induction a as [|[l h] t IH]; intros [|[l' h'] t'] ba bb Ha Hb Hext.
  - reflexivity.
  - specialize (Hext l'). rewrite (imem_first _ _ _ _ Hb) in Hext. discriminate Hext.
  - specialize (Hext l). rewrite (imem_first _ _ _ _ Ha) in Hext. discriminate Hext.
  - destruct (canon_head_le _ _ _ _ _ _ _ _ Ha Hb Hext) as [Hl Hh].
    destruct (canon_head_le _ _ _ _ _ _ _ _ Hb Ha (fun x => eq_sym (Hext x))) as [Hl' Hh'].
    assert (l = l') by lia. subst l'. specialize (Hh eq_refl). specialize (Hh' eq_refl).
    assert (h = h') by lia. subst h'. f_equal. apply (IH t' (h + 2) (h + 2)); [apply Ha|apply Hb|].
    intros x. rewrite (imem_tail _ _ _ _ x Ha), (imem_tail _ _ _ _ x Hb), Hext. reflexivity.
Qed.

Lemma canon_ext a b : canon a -> canon b -> (forall x, imem x a = imem x b) -> a = b.
Proof.
  intros [ba Ha]%canon_lb [bb Hb]%canon_lb. exact (canon_ext_lb a b ba bb Ha Hb).
Qed.

Lemma iset_eqb_spec a b : iset_eqb a b = true <-> a = b.
Proof.
  revert b. induction a as [|[l h] t IH]; intros [|[l' h'] t']; cbn [iset_eqb];
    try (split; [discriminate|discriminate]).
  - split; reflexivity.
  - unfold ivl_eqb. cbn [fst snd]. split.
    + intros [[->%Z.eqb_eq ->%Z.eqb_eq]%andb_true_iff ->%IH]%andb_true_iff. reflexivity.
    + intros [= -> -> ->]. rewrite !Z.eqb_refl. apply IH. reflexivity.
Qed.

Lemma iset_eqb_denote a b :
  canon a -> canon b -> (iset_eqb a b = true <-> forall x, imem x a = imem x b).
Proof.
  intros Ha Hb. rewrite iset_eqb_spec. split.
  - intros -> x. reflexivity.
  - apply canon_ext; assumption.
Qed.
