(* The csv output of `diff` determines the diff too.  The formatter joins the six fields of a line with ';', sorts the
   joined strings and splits them again: the fields hold no ';'.  encoding/csv quotes a field iff it holds a comma or a
   quote: only the printed connections can. *)
From Coq Require Import List Bool String Ascii Permutation.
From NP Require Import ConnSet ConnSetProofs Diff Format Basics StrInj ConnInj RowInj DiffInj.
Import ListNotations.
Open Scope string_scope.

Definition nosemi (ch : ascii) : bool := negb (Ascii.eqb ch ";").
Lemma nosemi_semi : nosemi ";" = false. Proof. reflexivity. Qed.

Lemma split_semi_app a rest cur : all_chars nosemi a = true -> split_semi (a ++ rest) cur = split_semi rest (cur ++ a).
Proof.
  revert cur. induction a as [|c a IH]; intros cur H; cbn [append split_semi].
  - rewrite append_nil_r. reflexivity.
  - cbn in H. apply andb_true_iff in H. destruct H as [H1 H2]. unfold nosemi in H1. apply negb_true_iff in H1.
    rewrite H1, (IH _ H2), append_assoc. reflexivity.
Qed.

Lemma split_semi_join a l cur :
  all_chars nosemi a = true -> Forall (chars nosemi) l -> split_semi (join ";" (a :: l)) cur = (cur ++ a) :: l.
Proof.
  intros Ha Hl. revert a cur Ha. induction Hl as [|b l Hb _ IH]; intros a cur Ha.
  - pose proof (split_semi_app a "" cur Ha) as K. rewrite append_nil_r in K. exact K.
  - rewrite join_cons, (split_semi_app a _ cur Ha). cbn [append split_semi Ascii.eqb Bool.eqb]. rewrite (IH b "" Hb). reflexivity.
Qed.

Definition dentry_csv_ok (e : dentry) : Prop :=
  dentry_ok e /\ all_chars nosemi (rpeer_str (de_src e)) = true /\ all_chars nosemi (rpeer_str (de_dst e)) = true.

Definition keyf (e : dentry) : string := diff_csv_key (drow_of e).

Lemma key_fields e : dentry_csv_ok e -> split_semi (keyf e) "" = drow_fields (drow_of e).
Proof.
  intros (He & Ss & Sd). pose proof He as (_ & _ & _ & C1 & C2 & _).
  pose proof (fun c Hc => chars_without conn_char ";" _ eq_refl (cs_string_chars c Hc)) as CS.
  apply (split_semi_join (dr_type (drow_of e)) [_; _; _; _; _] "").
  - cbn [drow_of dr_type]. destruct (de_type e); reflexivity.
  - destruct (drow_conns e He) as [-> ->]. repeat constructor; [exact Ss|exact Sd|exact (CS _ C1)|exact (CS _ C2)|].
    exact (diff_info_chars nosemi e (all_but wordc ";" eq_refl) Ss Sd).
Qed.

Lemma key_row_delimiting : self_delimiting dentry_csv_ok (fun e => csv_row (split_semi (keyf e) "")).
Proof.
  intros e e' X X' He He' H. rewrite (key_fields e He), (key_fields e' He') in H.
  destruct (csv_row_delimiting drow_fields drow_alphabets eq_refl drow_fields_inj _ _ X X'
              (drow_of_ok e (proj1 He)) (drow_of_ok e' (proj1 He')) H) as [E EX].
  split; [exact (drow_of_inj e e' (proj1 He) (proj1 He') E)|exact EX].
Qed.

Theorem diff_csv_inj d d' :
  Forall dentry_csv_ok d -> Forall dentry_csv_ok d' -> diff_csv d = diff_csv d' ->
  Permutation (filter changedb d) (filter changedb d').
Proof.
  intros Hd Hd' H. unfold diff_csv in H.
  assert (N : forall l, csv_row l <> "") by (intros l; apply append_nonempty_r; discriminate).
  destruct (diff_is_empty d) eqn:E, (diff_is_empty d') eqn:E'.
  - rewrite (diff_empty_changed d E), (diff_empty_changed d' E'). constructor.
  - exfalso. symmetry in H. exact (append_nonempty _ _ (N _) H).
  - exfalso. exact (append_nonempty _ _ (N _) H).
  - apply append_inj_l in H.
    exact (cat_determines dentry_csv_ok keyf (fun s => csv_row (split_semi s "")) _ _ _ _ key_row_delimiting (fun e _ => N _)
             (incl_Forall (incl_filter _ d) Hd) (incl_Forall (incl_filter _ d') Hd') (diff_lines_perm _ d) (diff_lines_perm _ d') H).
Qed.

(* evaluated by the check on every implementation result *)
Definition dentry_csv_printableb (e : dentry) : bool :=
  dentry_printableb e && all_chars nosemi (rpeer_str (de_src e)) && all_chars nosemi (rpeer_str (de_dst e)).

Lemma dentry_csv_printableb_spec e : dentry_csv_printableb e = true -> dentry_csv_ok e.
Proof.
  unfold dentry_csv_printableb, dentry_csv_ok. intros H. apply andb_prop in H. destruct H as [H H3]. apply andb_prop in H. destruct H as [H1 H2].
  split; [apply dentry_printableb_spec; exact H1|]. split; assumption.
Qed.

Definition dcsv_printable_mismatches (cs : list dfmt_case) : list (nat * nat) :=
  flat_map (fun c => if forallb dentry_csv_printableb (df_diff c) then [] else [(df_id c, 5%nat)]) cs.
