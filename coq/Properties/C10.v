(* C10 — ingress-controller lines follow Ingress/Route -> Service -> workload + policies.
   Statements only; proofs in Proofs/IngressProofs.v, on the model of ingress_analyzer.go and of
   connlist.go's getIngressAllowedConnections (Model/Ingress.v).
   [ia] is the analyzer state: the Services kept (non-nil selector, selecting at least one workload of their
   namespace), and per Route / Ingress the backends that are Services.
   [spec_ing_targeted ia k]: some Route or Ingress has a backend naming a kept Service of its own namespace that selects k.
   [spec_ing_port true ia k n]: ... and n is reached: n is a TCP container port of k and is what the targetPort
   (number, or name resolved on k; the port itself when unset) of the designated service port means on k;
   a Route designates by name, number or targetPort, a k8s-Ingress by name or number only (strict = true).
   [policy_allows w dp pr n]: the pointwise policy semantics of Model/Spec.v (s_allows) from the ingress-controller
   pod (no labels, namespace ingress-controller-ns with only its automatic name label unless the input declares it). *)
From Coq Require Import List ZArith Bool String.
From NP Require Import IntervalSet ConnSet ConnSetProofs World Eval Spec EvalProofs Build Connlist Ingress IngressProofs IngressUnique.
Import ListNotations.
Open Scope Z_scope.

Theorem C10_lines_and_warnings_are_exactly_the_statement w ios focus r :
  world_okb w = true -> forallb pod_okb (w_pods w) = true ->
  list_world_ing true w ios focus = Ok r ->
  let wls := workloads_of (w_pods w) [] in
  let ia := analyze wls ios in
  exists base lines,
    list_world w focus (negb (ia_empty ia)) = Ok base /\
    lr_entries (ir_list r) = lr_entries base ++ lines /\
    lr_peers (ir_list r) = lr_peers base /\ lr_warn (ir_list r) = lr_warn base /\
    (forall e, In e lines ->
       exists k p dp, In (k, p) wls /\ spec_ing_targeted ia k = true /\
         include_pair focus ingress_mpeer (wl_mpeer k p) = true /\
         re_src e = ing_src /\ re_dst e = RW k /\ pod_peer w p = Ok dp /\ cs_ninv (re_conn e) /\
         (exists pr n, cs_denote (re_conn e) pr n = true) /\
         forall pr n, cs_denote (re_conn e) pr n
                      = proto_eqb TCP pr && spec_ing_port true ia k n && policy_allows w dp pr n) /\
    (forall x, In x (ir_warns r) ->
       exists k p dp, In (k, p) wls /\ spec_ing_targeted ia k = true /\ iw_peer x = k /\ pod_peer w p = Ok dp /\
         (forall pr n, proto_eqb TCP pr && spec_ing_port true ia k n && policy_allows w dp pr n = false) /\
         iw_objs x <> [] /\
         forall nm, In nm (iw_objs x) -> names_target ia (if iw_is_ing x then ia_ings ia else ia_routes ia) k nm) /\
    (forall k p, In (k, p) wls -> spec_ing_targeted ia k = true -> lr_warn base = false ->
       include_pair focus ingress_mpeer (wl_mpeer k p) = true ->
       (exists e, In e lines /\ re_src e = ing_src /\ re_dst e = RW k) \/
       (exists x, In x (ir_warns r) /\ iw_peer x = k)).
Proof. exact (list_world_ing_ok true w ios focus r). Qed.
Print Assumptions C10_lines_and_warnings_are_exactly_the_statement.

(* what "reached" means *)
Theorem C10_reached_through_a_table bt ia tbl k n :
  table_reaches bt ia tbl k n = true <->
  exists o r peers ports e,
    In o tbl /\ In r (snd o) /\ lookup2 (fst (fst o), sr_svc r) (ia_svcs ia) = Some (peers, ports) /\
    find (fun e => String.eqb (fst e) k) peers = Some e /\ reaches bt (snd e) ports (sr_port r) n = true.
Proof. exact (table_reaches_iff bt ia tbl k n). Qed.
Print Assumptions C10_reached_through_a_table.

Theorem C10_reached_port bt p sps req n :
  reaches bt p sps req n = true <->
  exists a, In a (access_ports bt sps req) /\ resolve_access p a = Some n /\ tcp_container_port p n = true.
Proof. exact (reaches_iff bt p sps req n). Qed.
Print Assumptions C10_reached_port.

Theorem C10_designated_service_port bt sps req :
  ios_unset req = false ->
  access_ports bt sps req = match find (fun sp => designates bt sp req) sps with
                            | Some sp => [access_port sp]
                            | None => []
                            end.
Proof. exact (access_ports_designated bt sps req). Qed.
Print Assumptions C10_designated_service_port.

Theorem C10_no_required_port_means_all_service_ports bt sps req :
  ios_unset req = true -> access_ports bt sps req = map access_port sps.
Proof. exact (access_ports_all bt sps req). Qed.
Print Assumptions C10_no_required_port_means_all_service_ports.

(* only TCP lines, canonical, never empty: part of the first theorem; the set kept for a target stores TCP only *)
Theorem C10_targets_store_tcp_only wls ia strict t :
  (forall k p, In (k, p) wls -> pod_okb p = true) -> svcs_from wls (ia_svcs ia) ->
  In t (ing_targets strict wls ia) ->
  In (it_key t, it_pod t) wls /\ spec_ing_targeted ia (it_key t) = true /\ tcp_only (it_conn t) /\
  (forall q m, cs_denote (it_conn t) q m = proto_eqb TCP q && spec_ing_port strict ia (it_key t) m) /\
  it_ings t = kind_names (negb strict) ia (ia_ings ia) (it_key t) /\
  it_routes t = kind_names true ia (ia_routes ia) (it_key t).
Proof. exact (fun H1 H2 => ing_targets_in wls ia H1 H2 strict t). Qed.
Print Assumptions C10_targets_store_tcp_only.

(* the implementation's designation rule (an Ingress backend also matches a targetPort: known finding
   c10-ingress-backend-by-targetport) gives the stated report whenever no Ingress backend port equals a targetPort
   of a kept Service *)
Theorem C10_implementation_rule_agrees_without_targetport_coincidence w ios focus :
  no_target_coincidence (analyze (workloads_of (w_pods w) []) ios) ->
  list_world_ing false w ios focus = list_world_ing true w ios focus.
Proof. exact (list_world_ing_agree w ios focus). Qed.
Print Assumptions C10_implementation_rule_agrees_without_targetport_coincidence.

(* at most one line and at most one warning per workload *)
Theorem C10_one_line_per_workload strict w ios focus es ws :
  ingress_lines w focus (ing_targets strict (workloads_of (w_pods w) []) (analyze (workloads_of (w_pods w) []) ios)) = Ok (es, ws) ->
  NoDup (map re_dst es) /\ NoDup (map iw_peer ws).
Proof. exact (one_line_per_key strict w focus _ _ es ws (NP.ListProofs.one_peer_per_workload (w_pods w))). Qed.
Print Assumptions C10_one_line_per_workload.

(* non-vacuity: a Service selecting a workload through a named targetPort, an Ingress by port number, no policies *)
Example C10_example :
  let os := [OWorkload (mkWl "Deployment" "ns1" "w" None [("app", "a")] [mkCPort "http" 8080 TCP; mkCPort "dns" 53 UDP])] in
  let ios := [ISvc (mkSvc "ns1" "s" (Some [("app", "a")]) [mkSP "web" 80 (ios_name "http"); mkSP "" 53 (ios_num 53)]);
              IIng (mkIngDoc "ns1" "i" None [Some [Some (mkBR "s" "" 80)]])] in
  match list_objs_ing true os ios "" with
  | Ok r => map (fun e => (re_src e, re_dst e, cs_string (re_conn e)))
                (filter (fun e => rpeer_eqb (re_src e) ing_src) (lr_entries (ir_list r)))
            = [(ing_src, RW "ns1/w[Deployment]", "TCP 8080"%string)] /\ ir_warns r = []
  | Err _ => False
  end.
Proof. vm_compute. split; reflexivity. Qed.
