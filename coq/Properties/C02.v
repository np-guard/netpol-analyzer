(* C02 — ANP > NetworkPolicy > BANP precedence and rule order are respected.
   Statements only; proofs in Proofs/EvalProofs.v, Proofs/AbstractSort.v.
   Spec (Model/Spec.v): s_anps_verdict scans the ANPs that select the pod in the given (priority)
   order and their rules in listed order — the first rule matching the other end and the point
   decides; Pass / no match defers to the NetworkPolicy layer if it governs the pod, else to the
   first matching BANP rule (none = allow). *)
From Coq Require Import List ZArith Bool String Permutation.
From NP Require Import IntervalSet ConnSet ConnSetProofs World Eval Spec EvalProofs Build AbstractSort BuildProofs.
Import ListNotations.
Open Scope Z_scope.

(* per direction: the set computed by the mirror of allAllowedXgressConnections is the Spec *)
Theorem C02_direction_exact w src dst ingress c :
  peer_okb dst = true -> world_okb w = true ->
  xgress_conns w src dst ingress = Ok c ->
  cs_ninv c /\ forall pr n, cs_denote c pr n = valid_port n && s_dir_allows w src dst ingress pr n.
Proof. exact (xgress_conns_ok w src dst ingress c). Qed.
Print Assumptions C02_direction_exact.

(* both directions *)
Theorem C02_pair_exact w src dst c :
  peer_okb dst = true -> world_okb w = true ->
  all_conns w src dst = Ok c ->
  cs_ninv c /\
  forall pr n, cs_denote c pr n = valid_port n && (pod_to_itself src dst || s_allows w src dst pr n).
Proof. exact (all_conns_ok w src dst c). Qed.
Print Assumptions C02_pair_exact.

(* the Allowed / Denied / Pass triple after the ANP pass: its components are exactly the points
   whose first matching rule (of the first matching ANP) says Allow / Deny / Pass — in particular
   they are pairwise disjoint — for any number of ANPs and rules *)
Theorem C02_triple_is_first_match w src dst ingress pc :
  peer_okb dst = true -> forallb anp_okb (w_anps w) = true ->
  anps_conns (w_anps w) src dst ingress pc_new = Ok pc ->
  pc_ok pc /\
  forall pr n, valid_port n = true ->
    cs_denote (pc_allow pc) pr n = isA (s_anps_verdict (w_anps w) src dst ingress pr n) /\
    cs_denote (pc_deny pc) pr n = isD (s_anps_verdict (w_anps w) src dst ingress pr n) /\
    cs_denote (pc_pass pc) pr n = isP (s_anps_verdict (w_anps w) src dst ingress pr n).
Proof. exact (fun Hd Hok H => pc_is_ok_repr _ _ (anps_conns_is _ _ _ _ _ _ _ Hd Hok pc_new_is H)). Qed.
Print Assumptions C02_triple_is_first_match.

(* ANP / BANP never select external IPs *)
Theorem C02_admin_never_selects_ip ap b : s_admin_peer_matches ap (PIP b) = false.
Proof. destruct ap; reflexivity. Qed.
Print Assumptions C02_admin_never_selects_ip.

Theorem C02_admin_subject_never_selects_ip subj rules b : admin_selects subj rules (PIP b) = Ok false.
Proof. reflexivity. Qed.
Print Assumptions C02_admin_subject_never_selects_ip.

(* the answer is a function of the priorities only: whatever the order in which the ANPs appear
   in the input, sorting succeeds or fails alike and yields the same list to scan *)
Theorem C02_admin_order_irrelevant l1 l2 :
  Permutation l1 l2 ->
  is_ok (sort_anps l1) = is_ok (sort_anps l2) /\
  forall s1 s2, sort_anps l1 = Ok s1 -> sort_anps l2 = Ok s2 -> s1 = s2.
Proof. exact (sort_anps_perm_invariant l1 l2). Qed.
Print Assumptions C02_admin_order_irrelevant.
