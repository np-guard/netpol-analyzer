(* C08 — output is deterministic and independent of the order of the input.  (partial: see below)
   Statements only; proofs in Proofs/SortGeneric.v, Proofs/FormatProofs.v, Proofs/AbstractSort.v.
   What is proved: every modelled formatter is a function of the MULTISET of result entries — the
   order in which Go's maps, the document order or the file partition deliver them cannot matter — and
   this for ANY correct sort, not only the model's insertion sort.  That the result itself is a function
   of the set of resources is C01/C02 (the report is the Spec) plus canonical forms (C11) and the
   priority-sorted ANP list (C02_admin_order_irrelevant).  What is only sampled: the real map-iteration
   schedules of the Go runtime in code the mirror abstracts (dot output, exposure tables, Errors() order). *)
From Coq Require Import List ZArith Bool String Permutation Sorting.Sorted.
From NP Require Import IntervalSet ConnSet World Eval EvalProofs Build Connlist Diff Format SortGeneric FormatProofs OrderProofs XFormat XFormatProofs XFormatMore XFormatMoreProofs DiffDot XDot XDotProofs.
Import ListNotations.

(* sorting strings is a function of the multiset, and any correct sort.Strings computes it *)
Theorem C08_string_sort_order_independent l1 l2 : Permutation l1 l2 -> ssort l1 = ssort l2.
Proof. exact (ssort_perm_invariant l1 l2). Qed.
Print Assumptions C08_string_sort_order_independent.

Theorem C08_any_correct_string_sort_agrees (srt : list string -> list string) l :
  Permutation (srt l) l -> StronglySorted (fun a b => String.leb a b = true) (srt l) -> srt l = ssort l.
Proof. exact (ssort_is_the_sort srt l). Qed.
Print Assumptions C08_any_correct_string_sort_agrees.

Theorem C08_any_correct_row_sort_agrees (srt : list row -> list row) l :
  Permutation (srt l) l -> StronglySorted (fun a b => row_leb a b = true) (srt l) -> srt l = rowsort l.
Proof. exact (rowsort_is_the_sort srt l). Qed.
Print Assumptions C08_any_correct_row_sort_agrees.

(* list formats *)
Theorem C08_list_txt_order_independent es1 es2 : Permutation es1 es2 -> list_txt es1 = list_txt es2.
Proof. exact (list_txt_perm_invariant es1 es2). Qed.
Print Assumptions C08_list_txt_order_independent.
Theorem C08_list_md_order_independent es1 es2 : Permutation es1 es2 -> list_md es1 = list_md es2.
Proof. exact (list_md_perm_invariant es1 es2). Qed.
Print Assumptions C08_list_md_order_independent.
Theorem C08_list_csv_order_independent es1 es2 : Permutation es1 es2 -> list_csv es1 = list_csv es2.
Proof. exact (list_csv_perm_invariant es1 es2). Qed.
Print Assumptions C08_list_csv_order_independent.
Theorem C08_list_json_order_independent es1 es2 : Permutation es1 es2 -> list_json es1 = list_json es2.
Proof. exact (list_json_perm_invariant es1 es2). Qed.
Print Assumptions C08_list_json_order_independent.

(* dot: the output is a function of the multiset of entries and of the set of peers (the formatter's peersList, whose
   strings are distinct); map iteration over the namespace groups and the visiting order of the peers do not matter *)
Theorem C08_list_dot_order_independent es1 es2 ps1 ps2 :
  Permutation es1 es2 -> Permutation ps1 ps2 -> NoDup (map dp_str ps1) -> list_dot es1 ps1 = list_dot es2 ps2.
Proof. exact (list_dot_perm_invariant es1 es2 ps1 ps2). Qed.
Print Assumptions C08_list_dot_order_independent.

(* the txt output of list --exposure (Model/XFormat.v, byte-exact against the implementation on every run of C09): a function of
   the multiset of connections, of the set of exposed workloads and, per workload and direction, of the multiset of its entries *)
Theorem C08_exposure_txt_order_independent es es' xps mid xps' :
  Permutation es es' -> Permutation xps mid -> Forall2 xp_equiv mid xps' ->
  list_exposure_txt es xps = list_exposure_txt es' xps'.
Proof. exact (exposure_txt_order_independent es es' xps mid xps'). Qed.
Print Assumptions C08_exposure_txt_order_independent.

(* ... and so are its md, csv and json outputs (Model/XFormatMore.v, byte-exact against the implementation as well) *)
Theorem C08_exposure_md_order_independent es es' xps mid xps' :
  Permutation es es' -> Permutation xps mid -> Forall2 xp_equiv mid xps' -> list_exposure_md es xps = list_exposure_md es' xps'.
Proof. exact (exposure_md_order_independent es es' xps mid xps'). Qed.
Print Assumptions C08_exposure_md_order_independent.
Theorem C08_exposure_csv_order_independent es es' xps mid xps' :
  Permutation es es' -> Permutation xps mid -> Forall2 xp_equiv mid xps' -> list_exposure_csv es xps = list_exposure_csv es' xps'.
Proof. exact (exposure_csv_order_independent es es' xps mid xps'). Qed.
Print Assumptions C08_exposure_csv_order_independent.
Theorem C08_exposure_json_order_independent es es' xps mid xps' :
  Permutation es es' -> Permutation xps mid -> Forall2 xp_equiv mid xps' -> list_exposure_json es xps = list_exposure_json es' xps'.
Proof. exact (exposure_json_order_independent es es' xps mid xps'). Qed.
Print Assumptions C08_exposure_json_order_independent.

(* ... and its dot output (Model/XDot.v, byte-exact too): a function of the multiset of connections, the set of peers, the set of
   exposed workloads and the multiset of the entries of each - provided the node name of a representative peer determines its
   label and namespace label, which the check evaluates on every implementation result (nodes_consistentb) *)
Theorem C08_exposure_dot_order_independent es es' ps ps' xps mid xps' :
  Permutation es es' -> Permutation ps ps' -> NoDup (map dp_str ps) ->
  Permutation xps mid -> Forall2 xp_equiv mid xps' ->
  nodes_consistent (flat_map x_items xps) ->
  list_exposure_dot es ps xps = list_exposure_dot es' ps' xps'.
Proof. exact (exposure_dot_order_independent es es' ps ps' xps mid xps'). Qed.
Print Assumptions C08_exposure_dot_order_independent.

(* sortConnFields uses the unstable sort.Slice on (workload, other end) only: when no two lines of a section share both -
   which the check evaluates on every implementation result - ANY correct sort by that key returns the model's order *)
Theorem C08_unstable_key_sort_cannot_show (srt : list row -> list row) l :
  key_nodupb l = true ->
  Permutation (srt l) l -> StronglySorted (fun a b => key_leb a b = true) (srt l) -> srt l = rowsort l.
Proof. exact (key_sort_is_rowsort srt l). Qed.
Print Assumptions C08_unstable_key_sort_cannot_show.

(* diff formats *)
Theorem C08_diff_txt_order_independent d1 d2 : Permutation d1 d2 -> diff_txt d1 = diff_txt d2.
Proof. exact (diff_format_perm diff_txt_line (fun ls => join nl (_ :: ls) ++ nl)%string _ d1 d2). Qed.
Print Assumptions C08_diff_txt_order_independent.
Theorem C08_diff_md_order_independent d1 d2 : Permutation d1 d2 -> diff_md d1 = diff_md d2.
Proof. exact (diff_format_perm diff_md_line (fun ls => join nl (_ :: ls)) _ d1 d2). Qed.
Print Assumptions C08_diff_md_order_independent.
Theorem C08_diff_dot_order_independent d d' ps ps' :
  Permutation d d' -> Permutation ps ps' -> NoDup (map dp_str ps) -> diff_dot d ps = diff_dot d' ps'.
Proof. exact (diff_dot_perm_invariant d d' ps ps'). Qed.
Print Assumptions C08_diff_dot_order_independent.
Theorem C08_diff_csv_order_independent d1 d2 : Permutation d1 d2 -> diff_csv d1 = diff_csv d2.
Proof. exact (diff_format_perm diff_csv_key (fun ls => _ ++ fold_right _ _ ls)%string _ d1 d2). Qed.
Print Assumptions C08_diff_csv_order_independent.

(* analysis part: the connection set of every pair of peers is the same (identical canonical structure) whatever order the
   NetworkPolicies are met in - the order Go's map iteration picks in getPoliciesSelectingPod included - ... *)
Theorem C08_connection_independent_of_policy_order w w' src dst c c' :
  same_but_policies w w' -> peer_okb dst = true -> world_okb w = true -> world_okb w' = true ->
  all_conns w src dst = Ok c -> all_conns w' src dst = Ok c' -> c = c'.
Proof. exact (fun H => connection_independent_of_written_order w w' src dst c c' (same_but_policies_equiv w w' H)). Qed.
Print Assumptions C08_connection_independent_of_policy_order.

(* ... and whatever order the rules of a policy, the peers and ports of a rule and the policyTypes are written in *)
Theorem C08_connection_independent_of_written_order w w' src dst c c' :
  world_equiv w w' -> peer_okb dst = true -> world_okb w = true -> world_okb w' = true ->
  all_conns w src dst = Ok c -> all_conns w' src dst = Ok c' -> c = c'.
Proof. exact (connection_independent_of_written_order w w' src dst c c'). Qed.
Print Assumptions C08_connection_independent_of_written_order.
