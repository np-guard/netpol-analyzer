(* C16 — --focusworkload is a pure filter of the full report.
   Statements only; proofs in Proofs/ListProofs.v, on the model of connlist.go
   (Model/Connlist.v list_world; [mp_focus focus m]: the peer's name or namespace/name equals focus). *)
From Coq Require Import List ZArith Bool String.
From NP Require Import IntervalSet ConnSet World Eval Build Connlist ListProofs.
Import ListNotations.

Theorem C16_focused_entries_are_unfocused_entries w focus hi rf r0 :
  list_world w focus hi = Ok rf -> list_world w EmptyString hi = Ok r0 -> lr_warn rf = false -> w_pods w <> [] ->
  forall e, In e (lr_entries rf) ->
    In e (lr_entries r0) /\
    exists s d, In s (mpeers_of w (ip_partition_of w)) /\ In d (mpeers_of w (ip_partition_of w)) /\
                re_src e = mp_r s /\ re_dst e = mp_r d /\ (mp_focus focus s || mp_focus focus d) = true.
Proof. exact (focus_entries_subset w focus hi rf r0). Qed.
Print Assumptions C16_focused_entries_are_unfocused_entries.

Theorem C16_matching_unfocused_entries_are_kept w focus hi rf r0 :
  list_world w focus hi = Ok rf -> list_world w EmptyString hi = Ok r0 -> lr_warn rf = false -> w_pods w <> [] ->
  forall e s d, In e (lr_entries r0) ->
    In s (mpeers_of w (ip_partition_of w)) -> In d (mpeers_of w (ip_partition_of w)) ->
    re_src e = mp_r s -> re_dst e = mp_r d ->
    (forall s' d', In s' (mpeers_of w (ip_partition_of w)) -> In d' (mpeers_of w (ip_partition_of w)) ->
                   mp_r s' = mp_r s -> mp_r d' = mp_r d -> mp_focus focus s' || mp_focus focus d' = true) ->
    In e (lr_entries rf).
Proof. exact (focus_entries_complete w focus hi rf r0). Qed.
Print Assumptions C16_matching_unfocused_entries_are_kept.

Theorem C16_focus_absent_empty_warning w focus blocks :
  w_pods w <> [] -> owners_consistent (w_pods w) = true -> referenced_blocks (w_nps w) = Ok blocks ->
  String.eqb focus EmptyString = false ->
  existsb (mp_focus focus) (mpeers_of w (ip_partition blocks)) = false ->
  list_world w focus false = Ok (mkLR [] [] true).
Proof. exact (focus_absent_empty_warning w focus blocks). Qed.
Print Assumptions C16_focus_absent_empty_warning.
