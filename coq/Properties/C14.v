(* C14 — NetworkPolicies are additive and local; equivalent spellings agree.
   Statements only; proofs in Proofs/SpecProofs.v.  Laws of the NetworkPolicy-only semantics
   (Model/Spec.v s_np_only_allows), which the computed report equals on every point by C01;
   [ble a b] is implication of booleans: "never removes" / "never adds". *)
From Coq Require Import List ZArith Bool String.
From NP Require Import IntervalSet ConnSet World Spec SpecProofs.
Import ListNotations.
Open Scope Z_scope.

(* adding a rule to a policy in a direction it already governs never removes a connection *)
Theorem C14_add_rule_monotone w a np b (ing : bool) k r src dst pr n :
  s_np_affects np (if ing then Ingress else Egress) = true ->
  ble (s_np_only_allows (with_nps w (a ++ np :: b)) src dst pr n)
      (s_np_only_allows (with_nps w (a ++ add_rule np ing k r :: b)) src dst pr n).
Proof. exact (fun Ha => replace_policy_monotone w a np _ b src dst pr n (fun p d => add_rule_governs np ing k r p d Ha) (fun d => add_rule_policy_mono np ing k r src dst d pr n)). Qed.
Print Assumptions C14_add_rule_monotone.

(* adding a policy whose selected pods were all already governed in the directions it governs never removes *)
Theorem C14_add_policy_on_governed_monotone w q src dst pr n :
  (forall p d, s_np_governs q p d = true -> existsb (fun np => s_np_governs np p d) (w_nps w) = true) ->
  ble (s_np_only_allows w src dst pr n) (s_np_only_allows (with_nps w (q :: w_nps w)) src dst pr n).
Proof. exact (add_policy_on_governed_monotone w q src dst pr n). Qed.
Print Assumptions C14_add_policy_on_governed_monotone.

(* adding a policy whose selected pods were all ungoverned in those directions never adds *)
Theorem C14_add_policy_on_ungoverned_antitone w q src dst pr n :
  (forall p d, s_np_governs q p d = true -> existsb (fun np => s_np_governs np p d) (w_nps w) = false) ->
  ble (s_np_only_allows (with_nps w (q :: w_nps w)) src dst pr n) (s_np_only_allows w src dst pr n).
Proof. exact (add_policy_on_ungoverned_antitone w q src dst pr n). Qed.
Print Assumptions C14_add_policy_on_ungoverned_antitone.

(* a connection whose source the new policy does not select for egress and whose destination it does
   not select for ingress is unchanged *)
Theorem C14_add_policy_local w q src dst pr n :
  (forall p, self_pod src = Some p -> s_np_governs q p Egress = false) ->
  (forall p, self_pod dst = Some p -> s_np_governs q p Ingress = false) ->
  s_np_only_allows (with_nps w (q :: w_nps w)) src dst pr n = s_np_only_allows w src dst pr n.
Proof. exact (add_policy_local w q src dst pr n). Qed.
Print Assumptions C14_add_policy_local.

(* equivalent spellings *)
Theorem C14_matchLabels_vs_single_In k v m e l :
  sel_matches_raw (mkSel ((k, v) :: m) e) l = sel_matches_raw (mkSel m (mkReq k OpIn [v] :: e)) l.
Proof. exact (matchLabels_vs_single_In k v m e l). Qed.
Print Assumptions C14_matchLabels_vs_single_In.

Theorem C14_range_split pr_ a m b dst pr n :
  a <= m < b ->
  s_np_port_matches (mkNpPort pr_ (PNum a) (Some b)) dst pr n =
  s_np_port_matches (mkNpPort pr_ (PNum a) (Some m)) dst pr n || s_np_port_matches (mkNpPort pr_ (PNum (m + 1)) (Some b)) dst pr n.
Proof. exact (range_split pr_ a m b dst pr n). Qed.
Print Assumptions C14_range_split.

Theorem C14_cidr_halves lo mid hi a :
  lo <= mid < hi ->
  s_np_peer_matches EmptyString (NPIP (lo, hi) []) (PIP (a, a)) =
  s_np_peer_matches EmptyString (NPIP (lo, mid) []) (PIP (a, a)) || s_np_peer_matches EmptyString (NPIP (mid + 1, hi) []) (PIP (a, a)).
Proof. exact (cidr_split EmptyString lo mid hi [] a). Qed.
Print Assumptions C14_cidr_halves.

Theorem C14_policy_split_same_selector ns nm nm' sel types i1 i2 e1 e2 src dst d pr n :
  s_np_policy_allows (mkNetpol ns nm sel types (i1 ++ i2) (e1 ++ e2)) src dst d pr n =
  s_np_policy_allows (mkNetpol ns nm sel types i1 e1) src dst d pr n || s_np_policy_allows (mkNetpol ns nm' sel types i2 e2) src dst d pr n.
Proof. exact (policy_split_same_selector ns nm nm' sel types i1 i2 e1 e2 src dst d pr n). Qed.
Print Assumptions C14_policy_split_same_selector.

Theorem C14_explicit_vs_default_policyTypes ns nm sel i e d :
  s_np_affects (mkNetpol ns nm sel [] i e) d = s_np_affects (mkNetpol ns nm sel (default_types (mkNetpol ns nm sel [] i e)) i e) d.
Proof. exact (explicit_vs_default_policyTypes ns nm sel i e d). Qed.
Print Assumptions C14_explicit_vs_default_policyTypes.
