(* C19 — conflicting policy sets are always rejected, never resolved by input order.
   Statements only; proofs in Proofs/AbstractSort.v, Proofs/BuildProofs.v.
   Part 1 is about ANY correct comparison sort run with the Go callback of
   sortAdminNetpolsByPriority (a decision tree [t] over element indices, [sorts n t]: correct on
   every injective key, [wf n t]: indices in range): the detection cannot depend on pivoting,
   insertion-sort cutoffs or fallbacks of sort.Slice.
   Part 2 is about the model of addObjectsByKind (Model/Build.v): [l1], [l2], [l3] are arbitrary
   lists of other resources, so position and quantity of other resources are irrelevant. *)
From Coq Require Import List ZArith Bool String.
From NP Require Import IntervalSet ConnSet World Eval Build Connlist AbstractSort BuildProofs.
Import ListNotations.
Open Scope Z_scope.

Theorem C19_sort_detects_equal_priorities n t lo hi prio :
  sorts n t -> wf n t -> err lo hi prio t = false ->
  forall i j, (i < n)%nat -> (j < n)%nat -> i <> j -> prio i <> prio j.
Proof. exact (no_err_no_dup n lo hi t prio). Qed.
Print Assumptions C19_sort_detects_equal_priorities.

Theorem C19_sort_detects_out_of_range n t lo hi prio :
  sorts n t -> wf n t -> err lo hi prio t = false -> (2 <= n)%nat ->
  forall i, (i < n)%nat -> valid lo hi (prio i) = true.
Proof. exact (no_err_all_valid n lo hi t prio). Qed.
Print Assumptions C19_sort_detects_out_of_range.

(* the model's sort verdict is exactly "no two equal priorities and all in range" *)
Theorem C19_sort_verdict l :
  is_ok (sort_anps l) = negb (has_dup_prio l) && forallb (fun a => valid_priority (a_prio a)) l.
Proof. exact (sort_anps_ok_iff l). Qed.
Print Assumptions C19_sort_verdict.

Theorem C19_same_priority_rejected a1 a2 l1 l2 l3 :
  a_prio a1 = a_prio a2 -> is_ok (build_world (l1 ++ OAnp a1 :: l2 ++ OAnp a2 :: l3)) = false.
Proof. exact (same_priority_rejected a1 a2 l1 l2 l3). Qed.
Print Assumptions C19_same_priority_rejected.

Theorem C19_priority_out_of_range_rejected a l1 l2 :
  valid_priority (a_prio a) = false -> is_ok (build_world (l1 ++ OAnp a :: l2)) = false.
Proof. exact (priority_out_of_range_rejected a l1 l2). Qed.
Print Assumptions C19_priority_out_of_range_rejected.

Theorem C19_same_anp_name_rejected a1 a2 l1 l2 l3 :
  a_name a1 = a_name a2 -> is_ok (build_world (l1 ++ OAnp a1 :: l2 ++ OAnp a2 :: l3)) = false.
Proof. exact (dup_anp_name_rejected a1 a2 l1 l2 l3). Qed.
Print Assumptions C19_same_anp_name_rejected.

Theorem C19_same_netpol_name_rejected np1 np2 l1 l2 l3 :
  np_ns (np_default_ns np1) = np_ns (np_default_ns np2) -> np_name np1 = np_name np2 ->
  is_ok (build_world (l1 ++ ONetpol np1 :: l2 ++ ONetpol np2 :: l3)) = false.
Proof. exact (dup_netpol_name_rejected np1 np2 l1 l2 l3). Qed.
Print Assumptions C19_same_netpol_name_rejected.

Theorem C19_second_banp_rejected b1 b2 l1 l2 l3 :
  is_ok (build_world (l1 ++ OBanp b1 :: l2 ++ OBanp b2 :: l3)) = false.
Proof. exact (second_banp_rejected b1 b2 l1 l2 l3). Qed.
Print Assumptions C19_second_banp_rejected.

Theorem C19_banp_not_named_default_rejected b l1 l2 :
  String.eqb (b_name b) "default" = false -> is_ok (build_world (l1 ++ OBanp b :: l2)) = false.
Proof. exact (banp_name_rejected b l1 l2). Qed.
Print Assumptions C19_banp_not_named_default_rejected.

Theorem C19_inconsistent_owner_labels_rejected w focus hi :
  w_pods w <> [] -> owners_consistent (w_pods w) = false -> is_ok (list_world w focus hi) = false.
Proof. exact (inconsistent_owner_rejected w focus hi). Qed.
Print Assumptions C19_inconsistent_owner_labels_rejected.

(* no false conflict from the priorities *)
Theorem C19_no_false_priority_conflict l :
  has_dup_prio l = false -> forallb (fun a => valid_priority (a_prio a)) l = true ->
  sort_anps l = Ok (sort_by_prio l) \/ exists a, l = [a].
Proof. exact (fun Hd Hv => or_introl (sort_anps_ok l Hd Hv)). Qed.
Print Assumptions C19_no_false_priority_conflict.
