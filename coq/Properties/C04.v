(* C04 — diff is pointwise exact with respect to the two connectivity reports.
   Statements only; proofs in Proofs/DiffProofs.v.
   The check runs the boolean checker [diff_exact_b] on the IMPLEMENTATION's diff against the
   implementation's two list reports; the theorems say what a `true` answer means for reports and diffs of
   any size.  Model/Diff.v also mirrors diff.go (diff_model), compared with the implementation on every run. *)
From Coq Require Import List ZArith Bool String.
From NP Require Import IntervalSet IntervalSetProofs ConnSet ConnSetProofs World Build Connlist Diff DiffProofs.
Import ListNotations.
Open Scope Z_scope.

(* the checker examines every pair of points: all workloads named by either report or the diff, and for
   every IP range named anywhere its first address and the address after its last one *)
Theorem C04_checker_examines_all_point_pairs es1 ps1 es2 ps2 d :
  diff_exact_b es1 ps1 es2 ps2 d = true ->
  forall s t, In s (pt_dedup (dpts ps1 ps2 d)) -> In t (pt_dedup (dpts ps1 ps2 d)) ->
    match s, t with
    | PA _, PA _ => d_covering d s t = []
    | _, _ => point_exact es1 ps1 es2 ps2 d s t = true
    end.
Proof. exact (diff_exact_b_spec es1 ps1 es2 ps2 d). Qed.
Print Assumptions C04_checker_examines_all_point_pairs.

(* at every examined point: no covering entry when both reports have none; otherwise exactly one, of type
   unchanged / changed / added / removed, carrying exactly c1 and c2, new/lost flags set iff the workload is
   absent from the other set *)
Theorem C04_point_exact_meaning es1 ps1 es2 ps2 d s t :
  point_exact es1 ps1 es2 ps2 d s t = true ->
  match lookup_pt es1 s t, lookup_pt es2 s t with
  | None, None => d_covering d s t = []
  | c1, c2 =>
      exists e, d_covering d s t = [e] /\
        match c1, c2 with
        | Some a, Some b => de_type e = (if cs_struct_eqb a b then DUnchanged else DChanged) /\ de_c1 e = a /\ de_c2 e = b /\
                            de_src_flag e = false /\ de_dst_flag e = false
        | None, Some b => de_type e = DAdded /\ cs_isempty (de_c1 e) = true /\ de_c2 e = b /\
                          de_src_flag e = want_flag (workloads_of_peers ps1) s /\ de_dst_flag e = want_flag (workloads_of_peers ps1) t
        | Some a, None => de_type e = DRemoved /\ de_c1 e = a /\ cs_isempty (de_c2 e) = true /\
                          de_src_flag e = want_flag (workloads_of_peers ps2) s /\ de_dst_flag e = want_flag (workloads_of_peers ps2) t
        | None, None => False
        end
  end.
Proof. exact (point_exact_meaning es1 ps1 es2 ps2 d s t). Qed.
Print Assumptions C04_point_exact_meaning.

(* the mirror of diff.go: equal connections on both sides classify as unchanged (so diff(A,A) has no
   added / removed / changed entry), and re-merging the IP ranges of a group covers the same addresses *)
Theorem C04_model_equal_is_unchanged w1 w2 s t a :
  classify w1 w2 (mkDP s t (Some a) (Some a)) = [mkDE s t a a DUnchanged false false].
Proof. exact (classify_equal_is_unchanged w1 w2 s t a). Qed.
Print Assumptions C04_model_equal_is_unchanged.

Theorem C04_model_merge_covers_same ranges a : imem a (icanon_of ranges) = existsb (in_ivl a) ranges.
Proof. exact (icanon_of_mem ranges a). Qed.
Print Assumptions C04_model_merge_covers_same.

(* the checker is not vacuous *)
Example C04_checker_rejects_missing_entry :
  let c := mkCS false (Some (mkPS [(80, 80)] [] [])) None None in
  let es := [mkRE (RW "a") (RW "b") c] in
  let ps := [RIP 0 maxIP; RW "a"; RW "b"] in
  diff_exact_b es ps [] ps [] = false /\
  diff_exact_b es ps [] ps [mkDE (RW "a") (RW "b") c empty_cs DRemoved false false] = true /\
  diff_exact_b es ps [] ps [mkDE (RW "a") (RW "b") c empty_cs DRemoved true false] = false.
Proof. vm_compute. repeat split; reflexivity. Qed.
