(* C01 — list reports exactly what Kubernetes NetworkPolicy semantics allow.
   Statements only; proofs in Proofs/EvalProofs.v, Proofs/ListProofs.v.
   Model: Model/Eval.v (mirror of eval/check.go + internal/k8s/netpol.go), Model/Connlist.v
   (mirror of connlist.go), Spec: Model/Spec.v (pointwise NetworkPolicy semantics).
   [peer_okb] / [world_okb]: all port numbers lie in 1..65535 (what the API server enforces;
   the generator's valid stream satisfies it by construction). *)
From Coq Require Import List ZArith Bool String.
From NP Require Import IntervalSet ConnSet ConnSetProofs World Eval Spec EvalProofs Build Connlist ListProofs PartitionProofs.
Import ListNotations.
Open Scope Z_scope.

(* Between any two peers (workload pods, or a pod and an IP block / single address): whenever
   the analysis succeeds, the computed connection set contains (pr, n) iff the NetworkPolicy
   semantics allow it in both directions; and the set is in canonical form. *)
Theorem C01_pair_exact w src dst c :
  peer_okb dst = true -> world_okb w = true -> w_anps w = [] -> w_banp w = None ->
  all_conns w src dst = Ok c ->
  cs_ninv c /\
  forall pr n, cs_denote c pr n = valid_port n && (pod_to_itself src dst || s_np_only_allows w src dst pr n).
Proof. exact (all_conns_np_only w src dst c). Qed.
Print Assumptions C01_pair_exact.

(* the NetworkPolicy layer alone, per direction (used by C14 as well) *)
Theorem C01_np_layer_exact w src dst ingress r :
  peer_okb dst = true -> forallb netpol_okb (w_nps w) = true ->
  np_layer w src dst ingress = Ok r ->
  match r with
  | None => forall pr n, s_np_layer w src dst ingress pr n = None
  | Some c => cs_ninv c /\
              forall pr n, exists b, s_np_layer w src dst ingress pr n = Some b /\
                                     cs_denote c pr n = valid_port n && b
  end.
Proof. exact (np_layer_ok w src dst ingress r). Qed.
Print Assumptions C01_np_layer_exact.

(* The report: an entry (s, d, c) is listed exactly for the included ordered pairs of peers whose
   connection set c = all_conns is not empty, carrying that set. *)
Theorem C01_report_entries w focus hi r :
  list_world w focus hi = Ok r ->
  forall e, In e (lr_entries r) ->
  exists s d sp dp,
    In s (mpeers_of w (ip_partition_of w)) /\ In d (mpeers_of w (ip_partition_of w)) /\
    include_pair focus s d = true /\
    re_src e = mp_r s /\ re_dst e = mp_r d /\
    eval_peer w s = Ok sp /\ eval_peer w d = Ok dp /\
    all_conns w sp dp = Ok (re_conn e) /\ cs_isempty (re_conn e) = false.
Proof. exact (list_world_entries_sound w focus hi r). Qed.
Print Assumptions C01_report_entries.

Theorem C01_report_complete w focus hi r :
  list_world w focus hi = Ok r -> lr_warn r = false -> w_pods w <> [] ->
  forall s d sp dp c,
    In s (mpeers_of w (ip_partition_of w)) -> In d (mpeers_of w (ip_partition_of w)) ->
    include_pair focus s d = true ->
    eval_peer w s = Ok sp -> eval_peer w d = Ok dp -> all_conns w sp dp = Ok c ->
    cs_isempty c = false ->
    In (mkRE (mp_r s) (mp_r d) c) (lr_entries r).
Proof. exact (list_world_entries_complete w focus hi r). Qed.
Print Assumptions C01_report_complete.

(* the only documented deviation: an error for a named port on an IP destination arises only
   from a rule that carries a named port and is evaluated against an IP peer *)
Theorem C01_named_port_error_documented pp dst :
  get_ports_range pp dst = Err ErrNamedPortIP ->
  (exists nm, pp_port pp = PName nm) /\ peer_is_ip dst = true.
Proof. exact (named_port_err_documented pp dst). Qed.
Print Assumptions C01_named_port_error_documented.

(* the IP peers of a report are the blocks of the partition induced by every ipBlock (and except) of every rule: what the
   analysis says of a block holds for every single address in it, as source and as destination (admin policies included) *)
Theorem C01_block_answer_holds_for_every_address w blocks P x :
  referenced_blocks (w_nps w) = Ok blocks -> In P (ip_partition blocks) -> fst P <= x <= snd P ->
  (forall dst pr n, s_allows w (PIP P) dst pr n = s_allows w (PIP (x, x)) dst pr n) /\
  (forall src pr n, s_allows w src (PIP P) pr n = s_allows w src (PIP (x, x)) pr n).
Proof. exact (fun Hb HP Hx => block_answer_holds_for_every_subrange w blocks P (x, x) Hb HP (conj (proj1 Hx) (conj (Z.le_refl x) (proj2 Hx)))). Qed.
Print Assumptions C01_block_answer_holds_for_every_address.

(* no cut point of any referenced interval falls strictly inside a block *)
Theorem C01_rule_intervals_constant_on_blocks blocks iv P x y :
  In iv blocks -> In P (ip_partition blocks) ->
  fst P <= x <= snd P -> fst P <= y <= snd P -> in_ivl x iv = in_ivl y iv.
Proof. exact (interval_constant_on_block blocks iv P x y). Qed.
Print Assumptions C01_rule_intervals_constant_on_blocks.
