(* C13 — bad or irrelevant documents are reported and never skew the result.  (partial)
   Statements only; proofs in Proofs/PipelineProofs.v; model Model/Pipeline.v: classification of the
   documents of a directory, error accumulation and the stop-on-error / fatal-error control flow of
   parser.go and connlist.go on top of the analysis model.  Partial: the behaviour of the cli-runtime
   resource builder (which documents a broken file swallows) is assumed in the model and sampled by the check. *)
From Coq Require Import List ZArith Bool String.
From NP Require Import IntervalSet ConnSet World Eval Build Connlist Pipeline PipelineProofs.
Import ListNotations.
Open Scope nat_scope.

(* whatever documents of unused kinds, schema-bad resources or broken files are placed anywhere among the
   relevant documents, the computed connections are those of the clean input *)
Theorem C13_junk_irrelevant focus docs1 docs2 :
  filter is_relevant docs1 = filter is_relevant docs2 ->
  entries_of (list_pipeline false focus docs1) = entries_of (list_pipeline false focus docs2).
Proof. exact (fun H => junk_irrelevant_objs focus docs1 docs2 (eq_trans (relevant_objs_filter docs1) (eq_trans (f_equal relevant_objs H) (eq_sym (relevant_objs_filter docs2))))). Qed.
Print Assumptions C13_junk_irrelevant.

Theorem C13_malformed_reported_severe stop focus docs :
  malformed_count docs <= severe_count (errors_of (list_pipeline stop focus docs)).
Proof. exact (malformed_reported_severe stop focus docs). Qed.
Print Assumptions C13_malformed_reported_severe.

Theorem C13_stop_on_severe_no_partial focus docs :
  0 < malformed_count docs ->
  match list_pipeline true focus docs with POk es _ => es = [] | PErr _ => True end.
Proof. exact (stop_on_severe_no_partial focus docs). Qed.
Print Assumptions C13_stop_on_severe_no_partial.

Theorem C13_fatal_no_result stop focus docs e :
  list_objs (relevant_objs docs) focus = Err e ->
  entries_of (list_pipeline stop focus docs) = None \/ entries_of (list_pipeline stop focus docs) = Some [].
Proof. exact (fatal_no_result stop focus docs e). Qed.
Print Assumptions C13_fatal_no_result.
