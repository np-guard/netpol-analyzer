(* C17 — connectivity is per workload, independent of replicas and controller kind.
   Statements only; proofs in Proofs/ReexpressProofs.v (ListProofs.v for the one peer per workload, WfProofs.v for the
   no-self-entry clause).
   [vw x]: a peer seen through namespace, labels, namespace labels and container ports only. *)
From Coq Require Import List ZArith Bool String.
From NP Require Import IntervalSet ConnSet ConnSetProofs World Eval Spec EvalProofs EvalPoint Build Connlist ListProofs WfProofs EngineProofs ReexpressProofs.
Import ListNotations.
Open Scope Z_scope.

(* the semantics look at a pod only through its view *)
Theorem C17_semantics_per_view w s d pr n : s_allows w (vw s) (vw d) pr n = s_allows w s d pr n.
Proof. exact (s_allows_vw w s d pr n). Qed.
Print Assumptions C17_semantics_per_view.

(* hence two pairs of pods with the same views get identical (canonical) connection sets: replica
   count, controller kind and pod names cannot change a reported connection *)
Theorem C17_reexpress_conn_equal w s d s' d' c c' :
  vw s = vw s' -> vw d = vw d' ->
  pod_to_itself s d = false -> pod_to_itself s' d' = false ->
  peer_okb d = true -> peer_okb d' = true -> world_okb w = true ->
  all_conns w s d = Ok c -> all_conns w s' d' = Ok c' -> c = c'.
Proof. exact (reexpress_conn_equal w s d s' d' c c'). Qed.
Print Assumptions C17_reexpress_conn_equal.

(* the same pod template under any controller kind / replica count expands to pods with one view,
   one owner name and one namespace (only the recorded kind and the pod names differ) *)
Theorem C17_workload_pods_same_view wl1 wl2 p1 p2 :
  wl_ns wl1 = wl_ns wl2 -> wl_name wl1 = wl_name wl2 -> wl_labels wl1 = wl_labels wl2 -> wl_ports wl1 = wl_ports wl2 ->
  In p1 (pods_of_workload (norm_workload wl1)) -> In p2 (pods_of_workload (norm_workload wl2)) ->
  view p1 = view p2 /\ p_owner_name p1 = p_owner_name p2 /\ p_ns p1 = p_ns p2.
Proof. exact (workload_pods_same_view wl1 wl2 p1 p2). Qed.
Print Assumptions C17_workload_pods_same_view.

(* every workload string is represented by exactly one peer (pods of one owner collapse into it) *)
Theorem C17_one_peer_per_workload pods : NoDup (map fst (workloads_of pods [])).
Proof. exact (one_peer_per_workload pods). Qed.
Print Assumptions C17_one_peer_per_workload.

(* a workload is never listed as connecting to itself *)
Theorem C17_no_self_entry w focus hi r :
  list_world w focus hi = Ok r -> world_okb w = true -> forallb pod_okb (w_pods w) = true ->
  forall e, In e (lr_entries r) -> re_src e <> re_dst e.
Proof. intros H Hw Hp e He. apply (list_world_entries_wf w focus hi r H Hw Hp e He). Qed.
Print Assumptions C17_no_self_entry.

(* the finding recorded for the unchanged code: the pods map is keyed by the generated pod name, so a
   Deployment ns/a and a StatefulSet ns/a shadow each other: only one of the two workloads is a peer *)
Example C17_distinct_workloads_shadow_refuted :
  let d := OWorkload (mkWl "Deployment" "ns" "a" None [("app", "x")] []) in
  let s := OWorkload (mkWl "StatefulSet" "ns" "a" None [("app", "y")] []) in
  match build_world [d; s] with
  | Ok w => map fst (workloads_of (w_pods w) []) = ["ns/a[StatefulSet]"%string]
  | Err _ => False
  end.
Proof. vm_compute. reflexivity. Qed.
