(* C09 — every output format faithfully encodes the computed result.  (partial: see below)
   Statements only; proofs in Proofs/FormatProofs.v.  Model/Format.v gives list txt/md/csv/json/dot and
   diff txt/md/csv BYTE FOR BYTE as functions of the analysis result; the check compares the real
   formatter's bytes with these functions applied to the real API result on every run, and parses every
   format (incl. dot) back.  Proved here: each format lists every entry exactly once (rows are a
   permutation of the entries' rows), the row formats print the same rows, and - faithfulness proper - the
   rendering is INJECTIVE: the printed connection determines the canonical connection set, and the txt, md,
   csv and json outputs of `list` each determine the report (as a multiset of entries), so two different
   results never print alike and the four formats carry the same information.  The hypothesis (canonical
   connection sets, IPv4 ranges, workload names without blank / newline / comma / quote that do not consist
   of address-range characters only) is decidable (`entry_printableb`) and the check evaluates it on every
   implementation result.  Not proved: the same for diff and exposure outputs and for dot (parse-back in the
   check); encoding/json and encoding/csv are modelled on the alphabet the analysis produces. *)
From Coq Require Import List ZArith Bool String Permutation.
From NP Require Import IntervalSet ConnSet ConnSetProofs World Build Connlist Diff Format SortGeneric FormatProofs DiffDot XFormat XFormatProofs StrInj ConnInj RowInj
     Eval EvalProofs PartitionTiles ModelPrintable DiffInj DiffTxtInj DiffCsvInj DotInj XDot XDotProofs.
Import ListNotations.

Theorem C09_rows_are_exactly_the_entries es : Permutation (rowsort (map row_of es)) (map row_of es).
Proof. exact (rowsort_perm _). Qed.
Print Assumptions C09_rows_are_exactly_the_entries.

Theorem C09_txt_lines_are_exactly_the_entries es :
  Permutation (strsort (map (fun e => txt_line (row_of e)) es)) (map (fun e => txt_line (row_of e)) es).
Proof. exact (strsort_perm _). Qed.
Print Assumptions C09_txt_lines_are_exactly_the_entries.

Theorem C09_row_formats_share_rows es :
  list_md es = (join nl (md_header :: map md_line (rowsort (map row_of es))) ++ nl)%string /\
  list_csv es = (csv_row ["src"; "dst"; "conn"] ++
                 fold_right (fun r acc => csv_row [r_src r; r_dst r; r_conn r] ++ acc) EmptyString (rowsort (map row_of es)))%string.
Proof. exact (conj eq_refl eq_refl). Qed.
Print Assumptions C09_row_formats_share_rows.

(* the printed connection is a function of the set of (protocol, port) points: equal sets print identically *)
Theorem C09_conn_string_is_function_of_the_set c o :
  cs_ninv c -> cs_ninv o -> (forall p n, cs_denote c p n = cs_denote o p n) -> cs_string c = cs_string o.
Proof. exact (fun Hc Ho H => f_equal cs_string (cs_ninv_ext c o Hc Ho H)). Qed.
Print Assumptions C09_conn_string_is_function_of_the_set.

(* dot (byte-exact model since the check compares it too): the edge lines are exactly the entries, each once *)
Theorem C09_dot_edges_are_exactly_the_entries es :
  Permutation (strsort (map (fun e => dot_edge_line (row_of e)) es)) (map (fun e => dot_edge_line (row_of e)) es).
Proof. exact (strsort_perm _). Qed.
Print Assumptions C09_dot_edges_are_exactly_the_entries.

(* diff dot (byte-exact model Model/DiffDot.v): the edges are exactly the diff entries, unchanged ones included, each once *)
Theorem C09_diff_dot_edges_are_exactly_the_entries d :
  Permutation (strsort (map ddot_edge_line (filter (fun e => negb (is_ic e)) d)) ++ strsort (map ddot_edge_line (filter is_ic d)))
              (map ddot_edge_line d).
Proof. exact (diff_dot_edges_are_the_entries d). Qed.
Print Assumptions C09_diff_dot_edges_are_exactly_the_entries.

(* list --exposure, txt (byte-exact model Model/XFormat.v): the lines of each section are exactly the exposure entries, the
   IP connections of the exposed workloads and the unprotected directions, each once *)
Theorem C09_exposure_lines_are_exactly_the_entries es xps ingress :
  Permutation (rowsort (flat_map (xgress_rows es ingress) xps)) (flat_map (xgress_rows es ingress) xps).
Proof. exact (rowsort_perm _). Qed.
Print Assumptions C09_exposure_lines_are_exactly_the_entries.

(* list --exposure, dot (byte-exact model Model/XDot.v): the edges are exactly the connections, the exposure entries and the
   unprotected directions, each once *)
Theorem C09_exposure_dot_edges_are_exactly_the_entries es xps : Permutation (strsort (x_all_edges es xps)) (x_all_edges es xps).
Proof. exact (strsort_perm _). Qed.
Print Assumptions C09_exposure_dot_edges_are_exactly_the_entries.

(* ---- the rendering is injective ---- *)

(* the printed connection determines the canonical connection set (hence, with the theorem above: two canonical sets
   print alike iff they allow the same (protocol, port) points) *)
Theorem C09_connection_string_determines_the_set c o :
  cs_ninv c -> cs_ninv o -> cs_string c = cs_string o -> c = o.
Proof. exact (cs_string_inj c o). Qed.
Print Assumptions C09_connection_string_determines_the_set.

(* a printed peer determines the peer: an address range is never confused with a workload *)
Theorem C09_peer_string_determines_the_peer p q :
  peer_ok p -> peer_ok q -> rpeer_str p = rpeer_str q -> p = q.
Proof. exact (rpeer_str_inj p q). Qed.
Print Assumptions C09_peer_string_determines_the_peer.

(* each output of `list` determines the report *)
Theorem C09_txt_determines_the_report es es' :
  Forall entry_ok es -> Forall entry_ok es' -> list_txt es = list_txt es' -> Permutation es es'.
Proof. exact (list_txt_inj es es'). Qed.
Print Assumptions C09_txt_determines_the_report.

Theorem C09_md_determines_the_report es es' :
  Forall entry_ok es -> Forall entry_ok es' -> list_md es = list_md es' -> Permutation es es'.
Proof. exact (list_md_inj es es'). Qed.
Print Assumptions C09_md_determines_the_report.

Theorem C09_csv_determines_the_report es es' :
  Forall entry_ok es -> Forall entry_ok es' -> list_csv es = list_csv es' -> Permutation es es'.
Proof. exact (list_csv_inj es es'). Qed.
Print Assumptions C09_csv_determines_the_report.

Theorem C09_json_determines_the_report es es' :
  Forall entry_ok es -> Forall entry_ok es' -> list_json es = list_json es' -> Permutation es es'.
Proof. exact (list_json_inj es es'). Qed.
Print Assumptions C09_json_determines_the_report.

Theorem C09_formats_carry_the_same_information es es' : Forall entry_ok es -> Forall entry_ok es' ->
  (list_txt es = list_txt es' <-> list_md es = list_md es') /\
  (list_txt es = list_txt es' <-> list_csv es = list_csv es') /\
  (list_txt es = list_txt es' <-> list_json es = list_json es').
Proof. exact (formats_equivalent es es'). Qed.
Print Assumptions C09_formats_carry_the_same_information.

(* the hypothesis is decidable; the check runs this on every implementation result *)
Theorem C09_printable_checker_sound es : forallb entry_printableb es = true -> Forall entry_ok es.
Proof. exact (NP.Basics.forallb_Forall _ _ es entry_printableb_spec). Qed.
Print Assumptions C09_printable_checker_sound.

(* the model's own reports are inside that domain, whatever the policies: names built from blank-free namespace / name /
   kind strings, blocks of the IPv4 partition, canonical sets *)
Theorem C09_model_reports_are_printable w focus hi r :
  list_world w focus hi = Ok r -> world_okb w = true -> forallb pod_okb (w_pods w) = true ->
  Forall pod_plain (w_pods w) ->
  (forall bl, referenced_blocks (w_nps w) = Ok bl -> blocks_in_range bl) ->
  Forall entry_ok (lr_entries r).
Proof. exact (model_report_printable w focus hi r). Qed.
Print Assumptions C09_model_reports_are_printable.

(* so two analyses whose outputs coincide in any one format computed the same report *)
Theorem C09_equal_output_means_equal_report w1 w2 f1 f2 h1 h2 r1 r2 :
  list_world w1 f1 h1 = Ok r1 -> world_okb w1 = true -> forallb pod_okb (w_pods w1) = true -> Forall pod_plain (w_pods w1) ->
  (forall bl, referenced_blocks (w_nps w1) = Ok bl -> blocks_in_range bl) ->
  list_world w2 f2 h2 = Ok r2 -> world_okb w2 = true -> forallb pod_okb (w_pods w2) = true -> Forall pod_plain (w_pods w2) ->
  (forall bl, referenced_blocks (w_nps w2) = Ok bl -> blocks_in_range bl) ->
  list_txt (lr_entries r1) = list_txt (lr_entries r2) \/ list_md (lr_entries r1) = list_md (lr_entries r2) \/
  list_csv (lr_entries r1) = list_csv (lr_entries r2) \/ list_json (lr_entries r1) = list_json (lr_entries r2) ->
  Permutation (lr_entries r1) (lr_entries r2).
Proof. exact (model_reports_print_differently w1 w2 f1 f2 h1 h2 r1 r2). Qed.
Print Assumptions C09_equal_output_means_equal_report.

(* diff, md: the output determines the added / removed / changed entries (unchanged ones are not printed), connections,
   new/lost flags and all; [dentry_ok]: printable peers without '|', two different ends, canonical sets, the absent side of
   an added / removed entry is the empty set - decidable ([dentry_printableb]) and evaluated on every implementation result *)
Theorem C09_diff_md_determines_the_diff d d' :
  Forall dentry_ok d -> Forall dentry_ok d' -> diff_md d = diff_md d' ->
  Permutation (filter changedb d) (filter changedb d').
Proof. exact (diff_md_inj d d'). Qed.
Print Assumptions C09_diff_md_determines_the_diff.

(* ... and so does the txt output, the default format: its fields are separated by ", " and a printed connection holds
   commas, but none followed by a blank *)
Theorem C09_diff_txt_determines_the_diff d d' :
  Forall dentry_ok d -> Forall dentry_ok d' -> diff_txt d = diff_txt d' ->
  Permutation (filter changedb d) (filter changedb d').
Proof. exact (diff_txt_inj d d'). Qed.
Print Assumptions C09_diff_txt_determines_the_diff.

(* ... and the csv output (fields joined with ';', sorted, split again and quoted by encoding/csv); the peer strings hold no ';' *)
Theorem C09_diff_csv_determines_the_diff d d' :
  Forall dentry_csv_ok d -> Forall dentry_csv_ok d' -> diff_csv d = diff_csv d' ->
  Permutation (filter changedb d) (filter changedb d').
Proof. exact (diff_csv_inj d d'). Qed.
Print Assumptions C09_diff_csv_determines_the_diff.

Theorem C09_diff_csv_printable_checker_sound d : forallb dentry_csv_printableb d = true -> Forall dentry_csv_ok d.
Proof. exact (NP.Basics.forallb_Forall _ _ d dentry_csv_printableb_spec). Qed.
Print Assumptions C09_diff_csv_printable_checker_sound.

(* ... and the dot output: an edge line is the only kind of line made of a quoted string followed by " -> ", so the
   edges - hence the entries - can be read off the graph whatever peers list it was drawn with *)
Theorem C09_dot_determines_the_report es es' ps ps' :
  Forall entry_ok es -> Forall entry_ok es' -> Forall dpeer_ok ps -> Forall dpeer_ok ps' ->
  list_dot es ps = list_dot es' ps' -> Permutation es es'.
Proof. exact (list_dot_inj es es' ps ps'). Qed.
Print Assumptions C09_dot_determines_the_report.

Theorem C09_dot_printable_checker_sound ps : forallb dpeer_printableb ps = true -> Forall dpeer_ok ps.
Proof. exact (dpeers_printable ps). Qed.
Print Assumptions C09_dot_printable_checker_sound.

Theorem C09_diff_row_determines_the_entry e e' : dentry_ok e -> dentry_ok e' -> drow_of e = drow_of e' -> e = e'.
Proof. exact (drow_of_inj e e'). Qed.
Print Assumptions C09_diff_row_determines_the_entry.

Theorem C09_diff_printable_checker_sound d : forallb dentry_printableb d = true -> Forall dentry_ok d.
Proof. exact (NP.Basics.forallb_Forall _ _ d dentry_printableb_spec). Qed.
Print Assumptions C09_diff_printable_checker_sound.

(* non-vacuity: a report with workloads, an address range, a multi-protocol set and the full set is printable *)
Example C09_printable_example :
  forallb entry_printableb
    [ mkRE (RW "default/a[Deployment]") (RW "ns1/b-2[Pod]")
           (mkCS false (Some (mkPS [(80, 80); (8080, 8090)] [] [])) (Some (mkPS [(53, 53)] [] [])) None);
      mkRE (RIP 0 167772159) (RW "default/a[Deployment]") (mkCS true None None None);
      mkRE (RW "{ingress-controller}") (RW "default/a[Deployment]") (mkCS false (Some (mkPS [(1, 65535)] [] [])) None None) ]%Z
  = true.
Proof. vm_compute. reflexivity. Qed.
