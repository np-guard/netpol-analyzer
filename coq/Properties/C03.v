(* C03 — eval answers agree with list (and with the semantics) for every query.
   Statements only; proofs in Proofs/EvalPointProofs.v.
   Model/EvalPoint.v mirrors the rule walkers of `eval` (check_eval.go, ruleConnsContain,
   anpPortContains, Check{In,E}gressConnAllowed), which do not go through connection sets;
   Model/Eval.v mirrors the set computation of `list`. *)
From Coq Require Import List ZArith Bool String.
From NP Require Import IntervalSet ConnSet ConnSetProofs World Eval Spec EvalProofs EvalPoint EvalPointProofs.
Import ListNotations.
Open Scope Z_scope.

(* eval answers exactly what the semantics say, for pod-pod, IP-pod and pod-IP queries, every
   protocol, every port, any NetworkPolicy / ANP / BANP set *)
Theorem C03_eval_is_spec w src dst pr n b :
  check_allowed w src dst pr n = Ok b -> b = (pod_to_itself src dst || s_allows w src dst pr n).
Proof. exact (check_allowed_ok w src dst pr n b). Qed.
Print Assumptions C03_eval_is_spec.

(* eval returns true exactly when the list's connection set for the pair contains the point *)
Theorem C03_eval_eq_list w src dst pr n b c :
  peer_okb dst = true -> world_okb w = true -> valid_port n = true ->
  check_allowed w src dst pr n = Ok b -> all_conns w src dst = Ok c ->
  b = cs_denote c pr n.
Proof. exact (eval_eq_list w src dst pr n b c). Qed.
Print Assumptions C03_eval_eq_list.

(* per direction *)
Theorem C03_direction_is_spec w src dst ingress pr n b :
  xgress_allowed w src dst ingress pr n = Ok b -> b = s_dir_allows w src dst ingress pr n.
Proof. exact (xgress_allowed_ok w src dst ingress pr n b). Qed.
Print Assumptions C03_direction_is_spec.

(* a pod to itself is always allowed *)
Theorem C03_self_allowed w src dst pr n :
  pod_to_itself src dst = true -> check_allowed w src dst pr n = Ok true.
Proof. exact (self_allowed w src dst pr n). Qed.
Print Assumptions C03_self_allowed.

(* where list can analyse the pair, eval answers (for every point of that pair) rather than fails *)
Theorem C03_eval_answers_where_list_can_analyse w src dst c pr n :
  peer_okb dst = true -> world_okb w = true -> valid_port n = true ->
  all_conns w src dst = Ok c -> exists b, check_allowed w src dst pr n = Ok b.
Proof. exact (fun Hd Hw Hv H => ex_intro _ _ (check_allowed_is_list w src dst c pr n Hd Hw Hv H)). Qed.
Print Assumptions C03_eval_answers_where_list_can_analyse.
