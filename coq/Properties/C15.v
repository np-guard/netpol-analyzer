(* C15 — PolicyEngine answers depend on current objects only, not on update history.
   Statements only; proofs in Proofs/EngineProofs.v.  Model: Model/Engine.v, the engine as a
   state machine [step] over InsertObject / DeleteObject / SetResources / ClearResources /
   CheckIfAllowed with its owner-keyed verdict cache.
   [run_ops s ops]   : the answers the engine gives along the history;
   [run_fresh s ops] : the same history where every query is answered by a cache-less evaluation of
                       the objects the engine holds at that moment ([fresh_answer]).
   [good_run]: at the queries and pod deletions of the history, pods that share namespace, owner and
   labels also share container ports (the engine's own equivalence assumption, cf. the _needed example),
   and the history has no workload objects (the property speaks of pods). *)
From Coq Require Import List ZArith Bool String Permutation.
From NP Require Import IntervalSet ConnSet World Eval EvalPoint Build EvalCase Engine EngineProofs.
Import ListNotations.
Open Scope Z_scope.

(* after ANY finite history, every CheckIfAllowed answer is the fresh answer: results cached before
   an update never leak through it *)
Theorem C15_engine_refines_fresh ops :
  good_run estate0 ops -> run_ops estate0 ops = run_fresh estate0 ops.
Proof. exact (engine_refines_fresh ops estate0 Inv2_init). Qed.
Print Assumptions C15_engine_refines_fresh.

(* the same from any state satisfying the invariant, and the invariant is kept by every operation *)
Theorem C15_step_keeps_invariant s o : Inv2 s -> op_ok s o -> Inv2 (fst (step s o)).
Proof. exact (Inv2_step s o). Qed.
Print Assumptions C15_step_keeps_invariant.

Theorem C15_query_is_fresh s q :
  Inv s -> uniform (query_engine (es_eng s) q) ->
  snd (do_query s q) = fresh_answer s q /\ Inv (fst (do_query s q)).
Proof. exact (do_query_refines_fresh s q). Qed.
Print Assumptions C15_query_is_fresh.

(* admin policies are applied by priority regardless of insertion order: inserting the same
   (distinct-priority) policies in any order leaves the same list to scan *)
Theorem C15_anp_insert_order_irrelevant l1 l2 :
  Permutation l1 l2 -> NoDup (map a_prio l1) -> ins_all l1 = ins_all l2.
Proof. exact (anp_insert_order_irrelevant l1 l2). Qed.
Print Assumptions C15_anp_insert_order_irrelevant.

(* deleting an object that is not present is a no-op, not a crash *)
Theorem C15_delete_absent_pod_noop s ns name :
  find_pod (ns ++ "/" ++ name)%string (e_pods (es_eng s)) = None -> step s (EDelPod ns name) = (s, AUnit).
Proof. intros H. cbn [step]. unfold del_pod. rewrite H. reflexivity. Qed.
Print Assumptions C15_delete_absent_pod_noop.

Theorem C15_delete_absent_banp_noop s name :
  e_banp (es_eng s) = None -> step s (EDelBanp name) = (s, AUnit).
Proof. intros H. cbn [step]. rewrite H. reflexivity. Qed.
Print Assumptions C15_delete_absent_banp_noop.

(* the hypothesis on container ports is needed: two pods of one owner with equal labels but different
   numbers behind a named port share a cache key, and the cached verdict of one is served for the other *)
Example C15_uniformity_needed :
  let pod nm port := mkPodDoc "ns" nm [("app", "a")] [mkCPort "http" port TCP] (Some ("own", "ReplicaSet")) true in
  let cli := mkPodDoc "ns" "c" [("app", "c")] [] (Some ("ownc", "ReplicaSet")) true in
  let np := mkNetpol "ns" "np" (mkSel [("app", "a")] []) [Ingress] [mkNpRule [] [mkNpPort TCP (PName "http") None]] [] in
  let q nm := EQuery (mkQ (QPod "ns/c") (QPod nm) TCP 80) in
  run_ops estate0 [EInsPod (pod "a1" 80); EInsPod (pod "a2" 8080); EInsPod cli; EInsNp np; q "ns/a1"; q "ns/a2"]
  = [AUnit; AUnit; AUnit; AUnit; ABool true; ABool true] /\
  run_fresh estate0 [EInsPod (pod "a1" 80); EInsPod (pod "a2" 8080); EInsPod cli; EInsNp np; q "ns/a1"; q "ns/a2"]
  = [AUnit; AUnit; AUnit; AUnit; ABool true; ABool false].
Proof. vm_compute. split; reflexivity. Qed.
