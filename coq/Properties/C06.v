(* C06 — exposure analysis is sound and leaves base connectivity untouched.
   Statements only; proofs in Proofs/ExposureProofs.v, on the model of exposure mode (Model/Exposure.v: pre-scan of the
   policies, representative peers with their unique keys and refinement, evaluation against a representative peer, the
   pod's protected flag and entire-cluster connection, the entries of exposure_map.go).
   A hypothetical pod is any [PPod hp hnsl]: pod labels [p_labels hp], named ports [p_ports hp], namespace name [p_ns hp],
   namespace labels [hnsl]; the only thing assumed of it is that its namespace labels carry the automatic name label
   (lookup kubernetes.io/metadata.name = its namespace's name), as Kubernetes guarantees.
   [s_np_layer w src dst ingress pr n = Some true]: some NetworkPolicy governs the workload in that direction and a rule of a
   governing policy matches the other end and the point (Model/Spec.v, the plain NetworkPolicy semantics). *)
From Coq Require Import List ZArith Bool String.
From NP Require Import IntervalSet ConnSet ConnSetProofs World Eval Spec EvalProofs Build Connlist Exposure ExposureProofs.
Import ListNotations.
Open Scope Z_scope.

(* the same workload/IP connectivity as without the flag: whenever list produces a report, exposure mode produces that report *)
Theorem C06_base_report_unchanged w r :
  w_anps w = [] -> w_banp w = None -> forallb netpol_okb (w_nps w) = true -> forallb pod_okb (w_pods w) = true ->
  list_world w EmptyString false = Ok r -> list_world_x w = Ok r.
Proof. exact (exposure_base_report_unchanged w r). Qed.
Print Assumptions C06_base_report_unchanged.

(* 'not protected' in a direction iff no NetworkPolicy governs the workload in that direction *)
Theorem C06_protected_iff_governed w p nsl ingress reps d :
  dir_data w p nsl ingress reps = Ok (Some d) ->
  xd_protected d = negb (match filter (fun np => s_np_governs np p (dir_of ingress)) (w_nps w) with [] => true | _ => false end).
Proof. exact (dir_data_protected w p nsl ingress reps (Some d)). Qed.
Print Assumptions C06_protected_iff_governed.

(* every reported entry is realizable: for ANY pod whose labels and namespace labels satisfy the entry's selectors (any pod
   at all for the entire-cluster entry) the workload's policies allow every reported connection with it; a named port of an
   egress entry means that name as declared by the hypothetical pod *)
Theorem C06_reported_entry_is_realizable w reps p nsl ingress d e hp hnsl :
  forallb netpol_okb (w_nps w) = true -> pod_okb p = true ->
  dir_data w p nsl ingress reps = Ok (Some d) -> In e (xd_entries d) ->
  (xe_cluster e = true \/
   (sel_matches_raw (xe_nssel e) hnsl = true /\ sel_matches_raw (xe_podsel e) (p_labels hp) = true /\
    lookup K8sNsNameLabelKey hnsl = Some (p_ns hp))) ->
  let W := PPod p nsl in let X := PPod hp hnsl in
  (forall pr n, cs_denote (xe_conn e) pr n = true ->
     s_np_layer w (x_src W X ingress) (x_dst W X ingress) ingress pr n = Some true) /\
  (ingress = false -> forall q nm n, has_name (xe_conn e) q nm = true -> pod_named_port (p_ports hp) nm = Some (q, n) ->
     s_np_layer w W X false q n = Some true).
Proof. exact (reported_entry_realizable w reps p nsl ingress d e hp hnsl). Qed.
Print Assumptions C06_reported_entry_is_realizable.

(* what a representative peer stands for: selectors with the same requirement list select the same label sets *)
Theorem C06_same_requirements_same_pods a b l :
  creqs_eqb (sel_canon a) (sel_canon b) = true -> sel_matches_raw a l = sel_matches_raw b l.
Proof. exact (same_requirements_same_meaning a b l). Qed.
Print Assumptions C06_same_requirements_same_pods.

(* an ingress entire-cluster connection holds, for each named port of the rules, exactly the workload's own port of that name *)
Theorem C06_ingress_named_ports_are_the_workloads_own p c :
  pod_okb p = true -> cs_wf c ->
  cs_wf (convert_named p c) /\
  forall pr n, cs_denote (convert_named p c) pr n
               = cs_denote c pr n
                 || (valid_port n && negb (cs_all c)
                     && existsb (fun pn => proto_eqb (fst pn) pr && existsb (fun nm => resolves p (fst pn) nm n) (snd pn)) (cs_named_ports c)).
Proof. exact (convert_named_ok p c). Qed.
Print Assumptions C06_ingress_named_ports_are_the_workloads_own.

(* non-vacuity: a workload governed on ingress by a policy with one selector rule and one entire-cluster rule *)
Example C06_example :
  let os := [OWorkload (mkWl "Deployment" "ns1" "w" None [("app", "a")] [mkCPort "http" 8080 TCP]);
             ONetpol (mkNetpol "ns1" "p" (mkSel [] []) [Ingress]
                        [mkNpRule [NPSel None (Some (mkSel [("app", "x")] []))] [mkNpPort TCP (PNum 80) None];
                         mkNpRule [NPSel (Some (mkSel [] [])) None] [mkNpPort TCP (PName "http") None]] [])] in
  match exposure_objs os with
  | Ok r => map (fun x => (xp_peer x, xd_protected (xp_in x), xd_protected (xp_eg x),
                           map (fun e => (xe_cluster e, cs_string (xe_conn e))) (xd_entries (xp_in x)))) (xr_exposed r)
            = [("ns1/w[Deployment]"%string, true, false, [(true, "TCP 8080"%string); (false, "TCP 80,8080"%string)])]
  | Err _ => False
  end.
Proof. vm_compute. reflexivity. Qed.
